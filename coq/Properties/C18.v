(* C18 — An interrupted build leaves nothing that breaks the next one. *)
From Coq Require Import String.
From Verif Require Import Base.Bytes Model.Flags Model.Linker Model.PkgCache Proofs.LinkerProofs Proofs.PkgCacheProofs.
From Verif Require Gen.LinkerProtocol.

(* after any execution of any number of processes with kills at arbitrary steps, once the lock is
   free a fresh run reaches the point of use with a completely written linker and a stamp *)
Theorem C18_crash_then_rerun_ok : forall s s' p, init_ok s -> steps s s' -> holder s' = None -> pcs s' p = Idle ->
  exists s'', steps s' s'' /\ pcs s'' p = Using /\ link (d s'') = LComplete /\ stamp (d s'') = true.
Proof. intros s s' p Hi Hs. exact (crash_then_rerun_ok s' p (linker_inv s s' Hi Hs)). Qed.

(* the invariant survives every crash point (crash is a step of the system) *)
Theorem C18_inv_after_any_crash : forall s s', init_ok s -> steps s s' -> inv s'.
Proof. exact linker_inv. Qed.

(* cache entries interrupted mid-write (data file short or absent, index absent or unparsable)
   read as a miss, never as wrong bytes (C07's theorem, which is what makes a killed write harmless) *)
Theorem C18_partial_entry_is_a_miss : forall orig fs,
  let e := fold_left apply_fault fs (put orig) in get_file e = Miss \/ get_file e = Hit orig.
Proof. exact get_file_sound. Qed.

(* the stamp is written after the build in the source now *)
Theorem C18_stamp_last :
  Gen.LinkerProtocol.patch_linker_calls =
    map s2b ["Lock"; "checkVersion"; "fileExists"; "applyPatches"; "buildLinker"; "writeVersion"]%string.
Proof. reflexivity. Qed.

(* the executable search used when that obligation breaks finds no bad kill point for this order
   (3 initial disks x every disk effect), and finds one when the stamp is written first *)
Theorem C18_crash_search_clean :
  crash_search (map s2b ["Lock"; "checkVersion"; "fileExists"; "applyPatches"; "buildLinker"; "writeVersion"]%string) = None.
Proof. vm_compute. reflexivity. Qed.
Theorem C18_crash_search_finds_stamp_first :
  crash_search (map s2b ["Lock"; "checkVersion"; "fileExists"; "writeVersion"; "applyPatches"; "buildLinker"]%string) = Some ((SStale, KStale), 0%nat).
Proof. vm_compute. reflexivity. Qed.

(* outside the property's quantifier, recorded: a hand-deleted linker plus a kill during its rebuild *)
Theorem C18_missing_link_then_crash_refuted :
  exists s s', ~ disk_ok (d s) /\ steps s s' /\ holder s' = None /\ link (d s') = LPartial /\ stamp (d s') = true.
Proof. exact missing_link_then_crash_refuted. Qed.

Print Assumptions C18_crash_then_rerun_ok.
Print Assumptions C18_inv_after_any_crash.
Print Assumptions C18_partial_entry_is_a_miss.
Print Assumptions C18_stamp_last.
Print Assumptions C18_missing_link_then_crash_refuted.
Print Assumptions C18_crash_search_clean.
Print Assumptions C18_crash_search_finds_stamp_first.
