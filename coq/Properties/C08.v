(* C08 — Types that reach reflection keep their original names at run time. *)
From Coq Require Import Permutation.
From Verif Require Import Base.Bytes Model.Position Model.Reflect Model.TypeClosure Proofs.PositionProofs Proofs.ReflectProofs Proofs.TypeClosureProofs.
Open Scope N_scope.

(* (a) the run-time name table: a lookup that takes the highest-priority matching key, with
   priorities decreasing in argument order, is the replacer specified as "first pair in order
   whose key matches here" -- for any set of pairs (overlapping, prefix-sharing, repeated) *)
Theorem C08_replacer_priority_is_first_match : forall pairs s, prio_replace pairs s = naive_replace pairs s.
Proof. exact prio_replace_is_naive. Qed.

(* ... and such a replacer restores a name that stands at the current position *)
Theorem C08_restores_name_at_position : forall pairs s k v,
  first_match pairs s = Some (k, v) -> naive_replace pairs s = v ++ naive_replace pairs (skipn (length k) s).
Proof. exact naive_replace_front. Qed.

(* (c) the propagation of reflected parameters is NOT independent of the order in which the
   package's functions are visited (known finding F10): the same three functions, two visiting
   orders, one records the struct type T and the other does not *)
Theorem C08_analyse_order_refuted :
  exists o1 o2,
    (forall p, In p o1 -> Permutation p [fg; fh; fmain]) /\
    (forall p, In p o2 -> Permutation p [fg; fh; fmain]) /\
    names (analyse o1 init_state) = [T] /\ names (analyse o2 init_state) = [].
Proof. exact analyse_order_refuted. Qed.

(* (c) which names are recorded when a type reaches reflection (recursivelyRecordUsedForReflect as
   modelled in Model/TypeClosure.v): for every declared-type table and every root type, whenever the
   walk ends, it has recorded every declared type and struct field reflection can reach from the root
   (through fields, pointers, slices, arrays, channels, map keys and elements, func parameters and
   results, aliases and declared types, however they refer to each other) and nothing else *)
Theorem C08_closure_complete : forall underlying fuel t R,
  walk underlying fuel t [] = Some R -> forall o, reach underlying t o -> In o R.
Proof. intros underlying fuel t R H. apply (walk_complete underlying fuel t [] R H). intros id []. Qed.
Theorem C08_closure_sound : forall underlying fuel t R,
  walk underlying fuel t [] = Some R -> forall o, In o R -> reach underlying t o.
Proof. intros underlying fuel t R H o Ho. destruct (walk_sound underlying fuel t [] R H o Ho) as [[]|Hr]. exact Hr. Qed.

Print Assumptions C08_replacer_priority_is_first_match.
Print Assumptions C08_restores_name_at_position.
Print Assumptions C08_analyse_order_refuted.
Print Assumptions C08_closure_complete.
Print Assumptions C08_closure_sound.
