(* C02 — The binary carries no original names, paths, positions or build metadata (the part a
   theorem can carry: what garble hands to the toolchain). *)
From Verif Require Import Base.Bytes Model.Flags Model.Names Model.Rename Model.LinkFlags
  Proofs.NamesProofs Proofs.RenameProofs Proofs.LinkFlagsProofs.
From Verif Require Gen.StdTables.
Open Scope N_scope.

(* every variable, type and field of an obfuscated package, and every function or unexported method
   that is not a documented exception, is written under a hashed name ... *)
Theorem C02_everything_else_is_hashed : forall to_obf d,
  o_universe d = false -> special_keep (o_pkg d) (o_name d) = false -> to_obf (o_pkg d) = true ->
  match o_kind d with
  | KVar | KType => decide Gen.StdTables.intrinsics to_obf d = HashPkg
  | KField => decide Gen.StdTables.intrinsics to_obf d = HashStruct
  | _ => True
  end.
Proof. exact (decide_hashes_the_rest Gen.StdTables.intrinsics). Qed.

(* ... and a hashed name is 6..12 characters of [A-Za-z0-9_] computed from a SHA-256 sum: it is a
   function of the digest only, never a copy of the original spelling *)
Theorem C02_hashed_names_are_digest_text : forall salt seed name i e,
  valid_name (hash_custom salt seed name i e) = true /\
  hash_custom salt seed name i e = name_of_sum (Base.Sha256.sha256 (salt ++ seed ++ name)) i e.
Proof. intros. split; [apply hash_custom_valid | reflexivity]. Qed.

(* the linker command line garble produces from the one cmd/go passes: -importcfg replaced in
   place, -buildid emptied in place, every user flag kept, then the duplicated -X flags, the
   buildVersion override and -w -s at the very end *)
Theorem C02_link_flags_strip : forall pre cfgold mid X post xdups newcfg,
  nomention s_importcfg pre = true ->
  nomention s_buildid (pre ++ [s_importcfg; cfgold] ++ mid) = true ->
  transform_link_flags (pre ++ [s_importcfg; cfgold] ++ mid ++ [s_buildid ++ EQ :: X] ++ post) xdups newcfg
  = pre ++ [s_importcfg; newcfg] ++ mid ++ [s_buildid ++ [EQ]] ++ post ++ xdups ++ [s_X_buildversion; s_w; s_s].
Proof. exact transform_link_flags_shape. Qed.

(* -trimpath: garble's temporary directory is trimmed first, so a TMPDIR below the source
   directory is not shadowed by the shorter $PWD prefix *)
Theorem C02_trimpath_tempdir_first : forall pre old post tempdir,
  nomention s_trimpath pre = true -> nomention s_trimpath post = true ->
  alter_trimpath (pre ++ (s_trimpath ++ EQ :: old) :: post) tempdir
  = pre ++ (s_trimpath ++ EQ :: tempdir ++ s_arrow_semi ++ old) :: post.
Proof. exact alter_trimpath_shape. Qed.

Theorem C02_trimpath_tempdir_first_bare : forall pre old post tempdir,
  nomention s_trimpath pre = true -> nomention s_trimpath (old :: post) = true ->
  alter_trimpath (pre ++ s_trimpath :: old :: post) tempdir
  = pre ++ s_trimpath :: (tempdir ++ s_arrow_semi ++ old) :: post.
Proof. exact alter_trimpath_shape_bare. Qed.

Print Assumptions C02_trimpath_tempdir_first_bare.
Print Assumptions C02_everything_else_is_hashed.
Print Assumptions C02_hashed_names_are_digest_text.
Print Assumptions C02_link_flags_strip.
Print Assumptions C02_trimpath_tempdir_first.
