(* C16 — Obfuscated names are well-formed, export-preserving and stable. *)
From Verif Require Import Base.Bytes Base.Sha256 Model.Names Proofs.NamesProofs.
From Verif Require Gen.HashConsts.
Open Scope N_scope.

(* the model's constants are the ones hash.go declares now (regenerated every run) *)
Theorem C16_consts_tie :
  Gen.HashConsts.minHashLength = min_hash_length /\
  Gen.HashConsts.maxHashLength = max_hash_length /\
  Gen.HashConsts.neededSumBytes = N.of_nat needed_sum_bytes /\
  Gen.HashConsts.buildIDHashLength = N.of_nat build_id_hash_length.
Proof. repeat split; reflexivity. Qed.

(* every obfuscated name, for every salt, seed and original name (any bytes at all): 6..12
   characters of [A-Za-z0-9_], not starting with a digit *)
Theorem C16_name_valid : forall salt seed name i e,
  valid_name (hash_custom salt seed name i e) = true.
Proof. exact hash_custom_valid. Qed.

(* exported exactly when the original identifier was exported *)
Theorem C16_export_preserved : forall salt seed name e,
  is_upper (first_char (hash_custom salt seed name true e)) = e.
Proof. exact hash_custom_export. Qed.

(* pure function of (salt, seed, name): immediate in Gallina; stated for the record *)
Theorem C16_pure : forall salt seed name i e salt' seed' name',
  salt ++ seed ++ name = salt' ++ seed' ++ name' ->
  hash_custom salt seed name i e = hash_custom salt' seed' name' i e.
Proof. intros. unfold hash_custom. congruence. Qed.

(* a clash of two names needs the two SHA-256 sums to pick the same length and to agree on every
   6-bit symbol after the first, up to the single merged pair {'a','-'} *)
Theorem C16_collision_requires_prefix_collision : forall s1 s2 i e,
  length s1 = 32%nat -> length s2 = 32%nat -> bytes_ok s1 = true -> bytes_ok s2 = true ->
  name_of_sum s1 i e = name_of_sum s2 i e ->
  hash_length s1 = hash_length s2 /\
  Forall2 (fun a b => tail_equivb a b = true) (tl (name_sextets s1)) (tl (name_sextets s2)).
Proof. exact collision_requires_prefix_collision. Qed.

(* ... and the first symbol is one of at most four that print alike *)
Theorem C16_head_classes_small : head_table_ok = true.
Proof. exact head_classes_small. Qed.

(* sums fed to name_of_sum by hash_custom meet the hypotheses above *)
Theorem C16_sha_shape : forall m, length (sha256 m) = 32%nat /\ bytes_ok (sha256 m) = true.
Proof. intro m; split; [exact (sha256_length m) | exact (sha256_bytes_ok m)]. Qed.

(* non-vacuity: a concrete exported and unexported name *)
Example C16_example :
  hash_custom [97;98] [] [70;111;111] true true = [69;112;69;65;67;74;103;109;82;52;115].
Proof. vm_compute. reflexivity. Qed.

Print Assumptions C16_consts_tie.
Print Assumptions C16_name_valid.
Print Assumptions C16_export_preserved.
Print Assumptions C16_pure.
Print Assumptions C16_collision_requires_prefix_collision.
Print Assumptions C16_head_classes_small.
Print Assumptions C16_sha_shape.
