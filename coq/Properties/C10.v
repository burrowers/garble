(* C10 — -tiny silences every crash but keeps crash semantics (the statically checkable part, over
   the stripped runtime regenerated on every run). *)
From Verif Require Import Base.Bytes Model.Tiny Proofs.TinyProofs.
From Verif Require Gen.RuntimeGraph.
Open Scope N_scope.

Module G := Gen.RuntimeGraph.

(* no function outside print.go still calls the print/println builtins: every such call was
   redirected to the empty hidePrint *)
Theorem C10_no_builtin_print_left : G.builtin_print_outside_print_go = [].
Proof. reflexivity. Qed.

(* the three functions garble requires to be emptied (printDebugLog, hexdumpWords, writeErrStr)
   exist and call nothing any more *)
Theorem C10_required_strips_empty : G.calls_left_in_required_strips = 0%nat.
Proof. reflexivity. Qed.

(* [reaching] contains every function of the stripped runtime that can reach a raw stderr writer
   (gwrite, writeErr, writeErrData, write(2, ...)) through any chain of resolved calls *)
Theorem C10_reaching_is_complete : forall f, reaches G.graph G.sinks f -> memN f G.reaching = true.
Proof. eapply reaching_by_set; vm_compute; reflexivity. Qed.

(* ... and the only calls from outside the printing files (print.go, debuglog.go, hexdump.go,
   write_err.go) into such functions target the hexdump marker callbacks, which only the emptied
   hexdumpWords ever invokes *)
Theorem C10_frontier_only_marker_callbacks :
  forallb (fun e => memN (snd e) G.marker_methods) (frontier G.graph G.inner G.reaching) = true.
Proof. erewrite frontier_by_sets by (vm_compute; reflexivity). vm_compute. reflexivity. Qed.

Print Assumptions C10_no_builtin_print_left.
Print Assumptions C10_required_strips_empty.
Print Assumptions C10_reaching_is_complete.
Print Assumptions C10_frontier_only_marker_callbacks.
