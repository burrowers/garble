(* C17 — Concurrent garble processes never interfere (the patched-linker protocol, for every
   interleaving of any number of processes, crashes included). *)
From Coq Require Import String.
From Verif Require Import Base.Bytes Model.Flags Model.Linker Proofs.LinkerProofs.
From Verif Require Gen.LinkerProtocol.

(* whoever runs the cached linker holds the lock and sees a completely written file *)
Theorem C17_run_sees_complete : forall s s' p, init_ok s -> steps s s' -> pcs s' p = Using ->
  holder s' = Some p /\ link (d s') = LComplete.
Proof. intros s s' p Hi Hs. exact (run_sees_complete s' p (linker_inv s s' Hi Hs)). Qed.

(* at most one process checks, builds, stamps or uses the linker at any time *)
Theorem C17_mutual_exclusion : forall s s' p q, init_ok s -> steps s s' ->
  in_critical (pcs s' p) = true -> in_critical (pcs s' q) = true -> p = q.
Proof. intros s s' p q Hi Hs. exact (mutual_exclusion s' p q (linker_inv s s' Hi Hs)). Qed.

(* the invariant itself, over every reachable state *)
Theorem C17_linker_inv : forall s s', init_ok s -> steps s s' -> inv s'.
Proof. exact linker_inv. Qed.

(* the model's step order is the order of the calls in the source now: lock, check (version and
   existence), patch, build, stamp; and in the link step: obtain the linker, defer the unlock, run it
   (the first of the watched calls in mainErr is the `cmd.Run()` of the go command itself, before the
   toolexec branch: [skipn 1] leaves it out) *)
Theorem C17_protocol_order :
  Gen.LinkerProtocol.patch_linker_calls =
    map s2b ["Lock"; "checkVersion"; "fileExists"; "applyPatches"; "buildLinker"; "writeVersion"]%string /\
  skipn 1 Gen.LinkerProtocol.main_err_calls = map s2b ["PatchLinker"; "defer:unlock"; "Command"; "Run"]%string.
Proof. split; reflexivity. Qed.

Print Assumptions C17_run_sees_complete.
Print Assumptions C17_mutual_exclusion.
Print Assumptions C17_linker_inv.
Print Assumptions C17_protocol_order.
