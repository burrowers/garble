(* C09 — With -literals, literal contents do not appear in the binary (the part a theorem can carry). *)
From Verif Require Import Base.Bytes Model.Literals Proofs.LiteralsProofs.
From Verif Require Gen.LitConsts.
Open Scope N_scope.

(* the selection window of literals.go, over the constants in the source now *)
Definition in_window (n : N) : bool := (Gen.LitConsts.MinSize <=? n) && (n <=? Gen.LitConsts.MaxSize).
Theorem C09_window_exact : forall n, in_window n = true <-> 8 <= n <= 2048.
Proof. intros n. unfold in_window. rewrite andb_true_iff, !N.leb_le. reflexivity. Qed.
Theorem C09_window_boundaries :
  in_window 7 = false /\ in_window 8 = true /\ in_window 2048 = true /\ in_window 2049 = false.
Proof. repeat split; reflexivity. Qed.

(* what replaces a selected literal is encoder output; an encoded byte coincides with the
   plaintext byte exactly when the key byte is neutral (0), for every operator *)
Theorem C09_enc_byte_equals_plain_iff_neutral : forall o x k,
  x < 256 -> k < 256 -> (ap o x k = x <-> k = 0).
Proof. exact enc_byte_equals_plain_iff_neutral. Qed.

(* so under `simple` the emitted data literal repeats the plaintext at position i iff key[i] = 0 *)
Theorem C09_simple_position_leaks_iff_zero_key : forall o d key i,
  okb d -> okb key -> length key = length d -> (i < length d)%nat ->
  (at_ (zipw (ap o) d key) i = at_ d i <-> at_ key i = 0).
Proof.
  intros o d. induction d as [|x d IH]; intros [|k key] i Hd Hk Hl Hi; cbn in *; try lia.
  inversion Hd; inversion Hk. destruct i as [|i].
  - apply enc_byte_equals_plain_iff_neutral; assumption.
  - apply IH; auto; lia.
Qed.

Print Assumptions C09_window_exact.
Print Assumptions C09_window_boundaries.
Print Assumptions C09_enc_byte_equals_plain_iff_neutral.
Print Assumptions C09_simple_position_leaks_iff_zero_key.
