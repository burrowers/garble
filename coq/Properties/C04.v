(* C04 — garble reverse restores obfuscated traces exactly. *)
From Verif Require Import Base.Bytes Model.Position Proofs.PositionProofs.
Open Scope N_scope.

(* text containing nothing obfuscated passes through byte for byte, whatever its line endings, and
   is reported as not modified (exit status 1) *)
Theorem C04_passthrough : forall pairs text,
  forallb (fun l => negb (key_occurs pairs l)) (split_lines text []) = true ->
  reverse_content pairs text = (text, false).
Proof. exact reverse_content_passthrough. Qed.

(* a key at the current position is replaced by the value of the first matching pair, and
   replacement continues after the key *)
Theorem C04_replace_front : forall pairs s k v,
  first_match pairs s = Some (k, v) -> naive_replace pairs s = v ++ naive_replace pairs (skipn (length k) s).
Proof. exact naive_replace_front. Qed.

(* "F.go:1" is listed before its own prefix "F.go", so a trace line gets path/file.go:LINE and not
   path/file.go:1 *)
Theorem C04_position_pair_priority : forall f pos file rest, f <> [] ->
  first_match [(f ++ [58; 49], pos); (f, file)] (f ++ [58; 49] ++ rest) = Some (f ++ [58; 49], pos).
Proof. intros f pos file rest _. rewrite app_assoc. apply first_match_head. destruct f; discriminate. Qed.

(* every identifier node that prints as an IDENT token has exactly one entry: the i-th token gets
   the i-th node's directive (with the dot of dot imports skipped, as the fixed code does) *)
Theorem C04_ident_alignment : forall nodes next, length (call_offsets true nodes next) = ident_tokens nodes.
Proof. exact alignment_with_dot_skipped. Qed.
Theorem C04_alignment_refuted_without_skip :
  exists nodes, length (call_offsets false nodes None) <> ident_tokens nodes.
Proof. exact alignment_refuted_without_skip. Qed.

(* a call whose head sits on one line is reversed to the line the regular build prints ... *)
Theorem C04_reverse_roundtrip_single_line : forall c,
  paren_line c = head_line c -> reversed_line c = Some (paren_line c).
Proof. exact reverse_roundtrip_single_line. Qed.
(* ... and the full statement is false for call heads spanning lines (known finding F5) *)
Theorem C04_reverse_multiline_refuted :
  exists c, head_line c < paren_line c /\ reversed_line c <> Some (paren_line c).
Proof. exact reverse_multiline_refuted. Qed.

Print Assumptions C04_passthrough.
Print Assumptions C04_replace_front.
Print Assumptions C04_position_pair_priority.
Print Assumptions C04_ident_alignment.
Print Assumptions C04_alignment_refuted_without_skip.
Print Assumptions C04_reverse_roundtrip_single_line.
Print Assumptions C04_reverse_multiline_refuted.
