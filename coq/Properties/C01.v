(* C01 — Obfuscated builds behave exactly like regular builds (the naming part that a theorem
   can carry; the rest of the statement is exercised by the differential runs of the check). *)
From Verif Require Import Base.Bytes Model.Flags Model.Scope Model.Rename Model.Linkname Model.Asm Model.LinkFlags Proofs.RenameProofs Proofs.AsmProofs Proofs.LinkFlagsProofs.
From Verif Require Gen.StdTables.
Open Scope N_scope.

(* renaming preserves what every reference resolves to, in every chain of scopes, under the
   documented caveat that the new names separate the visible names exactly as the old ones did *)
Theorem C01_rename_preserves_resolution : forall (obj : Type) (rn : obj -> str) (c : list (scope obj)) n o,
  no_clash rn c -> resolve c n = Some o -> resolve (rename_chain rn c) (rn o) = Some o.
Proof. exact rename_preserves_resolution. Qed.

(* ... and nothing is captured: a renamed reference never lands on an object of another name *)
Theorem C01_rename_no_capture : forall (obj : Type) (rn : obj -> str) (c : list (scope obj)) n o,
  no_clash rn c -> In (n, o) (bindings c) ->
  forall o', resolve (rename_chain rn c) (rn o) = Some o' -> exists n', In (n', o') (bindings c) /\ n' = n.
Proof. exact rename_no_capture. Qed.

(* types keep satisfying exactly the same interfaces *)
Theorem C01_interfaces_preserved : forall (f : str -> str) (t i : list str),
  (forall a b, In a (t ++ i) -> In b (t ++ i) -> f a = f b -> a = b) ->
  implements (map f t) (map f i) = implements t i.
Proof. intros f t i H. apply implements_preserved. intros a b Ha Hb. apply H; apply in_or_app; auto. Qed.

(* names the toolchain, the runtime or other packages rely on are fixed points *)
Theorem C01_entry_points_kept : forall to_obf d,
  (o_kind d = KFunc \/ o_kind d = KMethod) ->
  (beq (o_name d) s_main || beq (o_name d) s_init || beq (o_name d) s_TestMain) = true ->
  decide Gen.StdTables.intrinsics to_obf d = Keep.
Proof. exact (decide_keeps_entry_points Gen.StdTables.intrinsics). Qed.
Theorem C01_exported_methods_kept : forall to_obf d,
  o_kind d = KMethod -> o_exported d = true -> decide Gen.StdTables.intrinsics to_obf d = Keep.
Proof. exact (decide_keeps_exported_methods Gen.StdTables.intrinsics). Qed.
Theorem C01_tests_kept : forall to_obf d,
  o_kind d = KFunc -> is_prefix s_Test (o_name d) = true -> o_test_sig d = true ->
  decide Gen.StdTables.intrinsics to_obf d = Keep.
Proof. exact (decide_keeps_tests Gen.StdTables.intrinsics). Qed.
Theorem C01_plain_packages_kept : forall to_obf d,
  to_obf (o_pkg d) = false -> decide Gen.StdTables.intrinsics to_obf d = Keep.
Proof. exact (decide_keeps_plain_packages Gen.StdTables.intrinsics). Qed.

(* //go:linkname to a function of an obfuscated package is rewritten to exactly the import path
   and name the declaring package's build uses; unknown targets are left byte for byte *)
Theorem C01_linkname_function_agrees : forall lookup_pkg hname ipath intr cur_path cur_obf exported local path fname,
  existsb (N.eqb DOT) path = false -> existsb (N.eqb DOT) fname = false ->
  ends_with s_under_test path = false ->
  lookup_pkg path = Found true -> intrinsic intr path fname = false ->
  beq (path ++ DOT :: fname) s_main_main = false ->
  snd (linkname_rewrite lookup_pkg hname ipath intr cur_path cur_obf exported local (path ++ DOT :: fname))
  = ipath path ++ [DOT] ++ hname path fname.
Proof. exact linkname_function_agrees. Qed.
Theorem C01_linkname_unknown_unchanged : forall lookup_pkg hname ipath intr cur_path cur_obf exported local new,
  (forall p, lookup_pkg p = NotFound) ->
  snd (linkname_rewrite lookup_pkg hname ipath intr cur_path cur_obf exported local new) = new.
Proof. exact linkname_unknown_unchanged. Qed.

(* assembly files (replaceAsmNames): text without a middle dot is copied unchanged *)
Theorem C01_asm_passthrough : forall is_letter is_digit lookup_pkg hname intr cur_name cur_key cur_obf cur_ipath s,
  existsb (N.eqb MID) s = false ->
  replace_asm_names is_letter is_digit lookup_pkg hname intr cur_name cur_key cur_obf cur_ipath s = s.
Proof. exact asm_passthrough. Qed.
(* an unqualified reference  ·name  gets the hash of the package's own objects (kept for plain
   packages and compiler intrinsics); the text before it is copied and the rest rewritten in turn *)
Theorem C01_asm_local_reference : forall is_letter is_digit lookup_pkg hname intr cur_name cur_key cur_obf cur_ipath,
  is_letter MID = false -> is_digit MID = false ->
  forall pre name c post fuel,
  existsb (N.eqb MID) pre = false ->
  (match rev pre with [] => true | x :: _ => negb (path_rune is_letter is_digit x) end) = true ->
  forallb (ident_rune is_letter is_digit) name = true ->
  path_rune is_letter is_digit c = false -> c <> MID ->
  rewrite is_letter is_digit lookup_pkg hname intr cur_name cur_key cur_obf cur_ipath (S fuel) (pre ++ MID :: name ++ c :: post) =
  pre ++ [MID] ++ (if cur_obf && negb (intrinsic intr cur_key name) then hname cur_key name else name)
      ++ rewrite is_letter is_digit lookup_pkg hname intr cur_name cur_key cur_obf cur_ipath fuel (c :: post).
Proof. exact asm_local_reference. Qed.
(* and that is the decision the Go side takes for the declaration of an ordinary package-level function *)
Theorem C01_asm_go_agree : forall intr to_obf d,
  o_kind d = KFunc -> o_universe d = false -> special_keep (o_pkg d) (o_name d) = false ->
  beq (o_name d) s_main = false -> beq (o_name d) s_init = false -> beq (o_name d) s_TestMain = false ->
  (is_prefix s_Test (o_name d) && o_test_sig d) = false ->
  (decide intr to_obf d = HashPkg) <-> (to_obf (o_pkg d) && negb (intrinsic intr (o_pkg d) (o_name d)) = true).
Proof. exact asm_go_agree. Qed.

(* -ldflags=-X (transformLink): a flag naming a variable of a package of the build is duplicated with the
   package's obfuscated import path and the hash the Go side gives the variable; the name is cut at the
   last dot, so import paths containing dots work; flags for unknown packages get no duplicate *)
Theorem C01_x_flag_duplicate : forall lookup cur hname path name v ipath key,
  existsb (N.eqb EQ) (path ++ 46 :: name) = false -> existsb (N.eqb 46) name = false ->
  beq path s_mainpkg = false -> lookup path = Some (ipath, key) ->
  x_dup lookup cur hname (path ++ 46 :: name ++ EQ :: v) = [s_Xeq ++ ipath ++ [46] ++ hname key name ++ [EQ] ++ v].
Proof. exact x_dup_of_known_package. Qed.
Theorem C01_x_flag_unknown_package : forall lookup cur hname path name v,
  existsb (N.eqb EQ) (path ++ 46 :: name) = false -> existsb (N.eqb 46) name = false ->
  beq path s_mainpkg = false -> lookup path = None ->
  x_dup lookup cur hname (path ++ 46 :: name ++ EQ :: v) = [].
Proof. exact x_dup_of_unknown_package. Qed.

Print Assumptions C01_rename_preserves_resolution.
Print Assumptions C01_rename_no_capture.
Print Assumptions C01_interfaces_preserved.
Print Assumptions C01_entry_points_kept.
Print Assumptions C01_exported_methods_kept.
Print Assumptions C01_tests_kept.
Print Assumptions C01_plain_packages_kept.
Print Assumptions C01_linkname_function_agrees.
Print Assumptions C01_linkname_unknown_unchanged.
Print Assumptions C01_asm_passthrough.
Print Assumptions C01_asm_local_reference.
Print Assumptions C01_asm_go_agree.
Print Assumptions C01_x_flag_duplicate.
Print Assumptions C01_x_flag_unknown_package.
