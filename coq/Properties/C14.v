(* C14 — GOGARBLE selects exactly which packages are obfuscated. *)
From Coq Require Import String.
From Verif Require Import Base.Bytes Model.Flags Model.Names Model.Scope Proofs.ScopeProofs.
From Verif Require Gen.StdTables.
Open Scope N_scope.

Definition rad := Gen.StdTables.runtime_and_deps.

(* the runtime and its dependencies are never obfuscated, whatever GOGARBLE says ... *)
Theorem C14_runtime_never : forall g p, mem (decision_path p) rad = true -> to_obfuscate rad g p = false.
Proof. intros g p H. apply runtime_never. unfold never_obfuscated. rewrite H. reflexivity. Qed.

(* ... and garble's table covers what the toolchain in use reports as runtime's dependencies *)
Theorem C14_runtime_table_covers_toolchain :
  forallb (fun p => mem p rad) Gen.StdTables.actual_runtime_deps = true.
Proof. vm_compute. reflexivity. Qed.

(* outside the fixed exclusions/inclusions a package is obfuscated exactly when GOGARBLE matches
   its import path (for test variants: the path of the package under test) *)
Theorem C14_selects_exactly : forall g p,
  never_obfuscated rad (decision_path p) = false -> p_nfiles p <> O ->
  always_obfuscated p (decision_path p) = false ->
  to_obfuscate rad g p = match_prefix_patterns g (decision_path p).
Proof. exact (selects_exactly rad). Qed.

(* pattern semantics: the matcher is the relational glob; the default "*" matches every path; a
   plain path selects exactly that package and the packages below it (a/b does not select a/bc) *)
Theorem C14_glob_spec : forall p s, glob p s = true <-> Glob p s.
Proof. exact glob_spec. Qed.
Theorem C14_default_matches_all : forall t, match_prefix_patterns [STAR] t = true.
Proof. exact default_matches_all. Qed.
Theorem C14_literal_pattern_selects_subtree : forall g t,
  literal_pattern g = true -> g <> [] ->
  (match_prefix_patterns g t = true <-> t = g \/ exists rest, t = g ++ SLASH :: rest).
Proof. exact literal_pattern_selects_subtree. Qed.

(* a package that is not selected keeps its package name and import path verbatim *)
Theorem C14_plain_untouched : forall keep c p e,
  to_obfuscate rad (c_gogarble c) p = false ->
  obf_pkg_name rad c p e = p_name p /\
  (obf_import_path rad keep c p = p_import_path p \/ obf_import_path rad keep c p = s_main).
Proof. exact (plain_untouched rad). Qed.

(* a pattern list that selects nothing being built is an error, unless it names the runtime *)
Theorem C14_nothing_matches_error : forall g pkgs,
  matches_nothing_error rad g pkgs = true <->
  (forall p, In p pkgs -> to_obfuscate rad g p = false) /\ match_prefix_patterns g s_runtime = false.
Proof. exact (nothing_matches_error_iff rad). Qed.

(* non-vacuity *)
Example C14_example :
  match_prefix_patterns (s2b "example.com/a/b,other/*") (s2b "example.com/a/b/c") = true /\
  match_prefix_patterns (s2b "example.com/a/b,other/*") (s2b "example.com/a/bc") = false /\
  match_prefix_patterns (s2b "example.com/a/b,other/*") (s2b "other/x/y") = true.
Proof. vm_compute. repeat split. Qed.

Print Assumptions C14_runtime_never.
Print Assumptions C14_runtime_table_covers_toolchain.
Print Assumptions C14_selects_exactly.
Print Assumptions C14_glob_spec.
Print Assumptions C14_default_matches_all.
Print Assumptions C14_literal_pattern_selects_subtree.
Print Assumptions C14_plain_untouched.
Print Assumptions C14_nothing_matches_error.
