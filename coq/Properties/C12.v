(* C12 — Name salting: fixed by -seed, otherwise tied to the build inputs. *)
From Verif Require Import Base.Bytes Base.Sha256 Model.Names Proofs.NamesProofs.
Open Scope N_scope.

(* With -seed: a name depends only on the seed, the identifier and its package path; every other
   input (flags, GOGARBLE, garble binary, Go action IDs = source, tags, platform, toolchain) is free *)
Theorem C12_seeded_name_depends_only_on : forall c1 c2 path aid1 aid2 name i e,
  c_seed c1 = c_seed c2 -> seed_present c1 = true ->
  hash_with_package c1 path aid1 name i e = hash_with_package c2 path aid2 name i e.
Proof. exact seeded_name_depends_only_on. Qed.

(* ... and for struct fields only on the seed, the field name and the struct's shape *)
Theorem C12_seeded_field_depends_only_on : forall c1 c2 shape f e,
  c_seed c1 = c_seed c2 -> seed_present c1 = true ->
  hash_with_struct c1 shape f e = hash_with_struct c2 shape f e.
Proof. exact seeded_field_depends_only_on. Qed.

(* another seed (of the same length), package or identifier gives another SHA-256 input, so the
   names differ unless SHA-256 collides on the prefix C16 characterises *)
Theorem C12_seeded_input_injective : forall p1 p2 s1 s2 n1 n2,
  no_byte 124 p1 = true -> no_byte 124 p2 = true -> length s1 = length s2 ->
  (p1 ++ [124]) ++ s1 ++ n1 = (p2 ++ [124]) ++ s2 ++ n2 -> p1 = p2 /\ s1 = s2 /\ n1 = n2.
Proof. exact seeded_input_injective. Qed.

(* Without -seed the package salt is SHA-256 of an input that is injective in the Go action ID
   (source, tags, platform, Go version), the garble binary ID, GOGARBLE and the garble flags *)
Theorem C12_unseeded_input_injective : forall h1 h2 c1 c2,
  seedless c1 -> seedless c2 ->
  length h1 = length h2 -> length (c_binary_id c1) = length (c_binary_id c2) ->
  no_byte 32 (c_gogarble c1) = true -> no_byte 32 (c_gogarble c2) = true ->
  garble_hash_input h1 c1 = garble_hash_input h2 c2 ->
  h1 = h2 /\ c_binary_id c1 = c_binary_id c2 /\ c_gogarble c1 = c_gogarble c2 /\ flag_combo c1 = flag_combo c2.
Proof. exact unseeded_input_injective. Qed.

(* unseeded field names: salted with the shape and garble's own inputs, not with any action ID
   (the definition has no action-ID argument); the same injectivity applies to its input *)
Theorem C12_unseeded_field_salt : forall c shape,
  seed_present c = false -> struct_salt c shape = sha256 (garble_hash_input (base32 shape) c).
Proof. intros c shape H. unfold struct_salt. rewrite H. reflexivity. Qed.

(* the documented weakness of the encoding: a space inside GOGARBLE makes it ambiguous *)
Theorem C12_hash_input_ambiguous_refuted :
  exists h c1 c2, flag_combo c1 <> flag_combo c2 /\ garble_hash_input h c1 = garble_hash_input h c2.
Proof. exact hash_input_ambiguous_refuted. Qed.

Print Assumptions C12_seeded_name_depends_only_on.
Print Assumptions C12_seeded_field_depends_only_on.
Print Assumptions C12_seeded_input_injective.
Print Assumptions C12_unseeded_input_injective.
Print Assumptions C12_unseeded_field_salt.
Print Assumptions C12_hash_input_ambiguous_refuted.
