(* C13 — garble map, the build and garble reverse agree on every name. *)
From Verif Require Import Base.Bytes Model.Names Model.Rename Proofs.RenameProofs.
Open Scope N_scope.

(* the name of an object: one function of the object's own descriptor and its declaring package's
   salt; there is no argument for "who is asking" (build of the declaring package, build of an
   importer, map, reverse), so all of them compute the same name *)
Definition obf_name (intr : list (str * list str)) (to_obf : str -> bool) (c : gcfg)
           (aid_of : str -> bytes) (shape : N) (d : objd) : str :=
  match decide intr to_obf d with
  | Keep => o_name d
  | HashPkg => hash_with_package c (o_pkg d) (aid_of (o_pkg d)) (o_name d) true (o_exported d)
  | HashStruct => hash_with_struct c shape (o_name d) (o_exported d)
  end.

Theorem C13_decision_is_one_function : forall intr to_obf c aid_of shape d1 d2,
  d1 = d2 -> obf_name intr to_obf c aid_of shape d1 = obf_name intr to_obf c aid_of shape d2.
Proof. intros; subst; reflexivity. Qed.

(* references keep resolving to the same objects under any renaming that separates the visible
   names exactly as the original names did (the "no hash collision within a scope" caveat) *)
Theorem C13_rename_preserves_resolution : forall (obj : Type) (rn : obj -> str) (c : list (scope obj)) n o,
  no_clash rn c -> resolve c n = Some o -> resolve (rename_chain rn c) (rn o) = Some o.
Proof. exact rename_preserves_resolution. Qed.

(* map lists decl names: in the model the listing is [obf_name] of each listed object, and the
   build writes [obf_name] at the declaration *)
Definition map_entry intr to_obf c aid_of shape (d : objd) : option str :=
  match decide intr to_obf d with Keep => None | _ => Some (obf_name intr to_obf c aid_of shape d) end.
Theorem C13_map_equals_build_model : forall intr to_obf c aid_of shape d n,
  map_entry intr to_obf c aid_of shape d = Some n -> n = obf_name intr to_obf c aid_of shape d.
Proof. intros * H. unfold map_entry in H. destruct (decide intr to_obf d); congruence. Qed.

(* reverse: a replacement table that contains (obf_name d, o_name d) maps the listed name back
   when the line is exactly that name (general lines: C04's replacer theorems) *)
Definition reverse_lookup (tbl : list (str * str)) (s : str) : str :=
  match find (fun p => beq (fst p) s) tbl with Some p => snd p | None => s end.
Theorem C13_reverse_inverts_listed : forall tbl g n,
  In (g, n) tbl -> (forall g' n', In (g', n') tbl -> g' = g -> n' = n) -> reverse_lookup tbl g = n.
Proof.
  intros tbl g n Hin Hfun. unfold reverse_lookup.
  destruct (find (fun p => beq (fst p) g) tbl) as [[g' n']|] eqn:E.
  - apply find_some in E as [Hi Hb]. apply beq_eq in Hb. apply (Hfun g' n' Hi Hb).
  - apply (find_none _ _ E) in Hin. rewrite beq_refl in Hin. discriminate.
Qed.

Print Assumptions C13_decision_is_one_function.
Print Assumptions C13_rename_preserves_resolution.
Print Assumptions C13_map_equals_build_model.
Print Assumptions C13_reverse_inverts_listed.
