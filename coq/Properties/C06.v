(* C06 — Cached builds never go stale. *)
From Verif Require Import Base.Bytes Model.Names Model.Cache Proofs.NamesProofs Proofs.CacheProofs.
From Verif Require Gen.KeyCoverage.
Open Scope N_scope.

(* over every history of builds that share a cache, each build's output equals the cold build's,
   provided equal keys imply equal cold outputs (the key covers what the build reads) *)
Theorem C06_memo_sound : forall (Cfg Key Out : Type) (key : Cfg -> Key) (F : Cfg -> Out) (key_eqb : Key -> Key -> bool),
  (forall a b, key_eqb a b = true <-> a = b) -> (forall x y, key x = key y -> F x = F y) ->
  forall h c, inv Cfg Key Out key F c -> fst (run_history Cfg Key Out key F key_eqb h c) = map F h.
Proof. exact memo_sound. Qed.

Theorem C06_noop_rebuild : forall (Cfg Key Out : Type) (key : Cfg -> Key) (F : Cfg -> Out) (key_eqb : Key -> Key -> bool),
  (forall a b, key_eqb a b = true <-> a = b) ->
  forall x c, let '(_, c1, _) := build Cfg Key Out key F key_eqb x c in snd (build Cfg Key Out key F key_eqb x c1) = false.
Proof. exact noop_rebuild. Qed.

(* garble's part of the key: injective in the Go action id (source, tags, platform, toolchain), the
   garble binary, GOGARBLE and the garble flags (C12's theorem), ... *)
Theorem C06_key_input_injective : forall h1 h2 c1 c2,
  seedless c1 -> seedless c2 ->
  length h1 = length h2 -> length (c_binary_id c1) = length (c_binary_id c2) ->
  no_byte 32 (c_gogarble c1) = true -> no_byte 32 (c_gogarble c2) = true ->
  garble_hash_input h1 c1 = garble_hash_input h2 c2 ->
  h1 = h2 /\ c_binary_id c1 = c_binary_id c2 /\ c_gogarble c1 = c_gogarble c2 /\ flag_combo c1 = flag_combo c2.
Proof. exact unseeded_input_injective. Qed.

(* ... and every build-affecting flag garble registers is written into that input (obligation over
   the source as it is now: main.go's flag registrations vs hash.go's appendFlags) *)
Theorem C06_flags_covered :
  flags_covered Gen.KeyCoverage.registered_flags Gen.KeyCoverage.hashed_flag_strings = true /\
  Gen.KeyCoverage.hash_writes_gogarble = true /\ Gen.KeyCoverage.hash_writes_binary_id = true.
Proof. split; [|split]; reflexivity. Qed.

(* known finding F7: the compile action's key does not cover -ldflags=-X, which the compile step
   reads under -literals *)
Theorem C06_compile_key_unsound_refuted :
  exists c1 c2, compile_key c1 = compile_key c2 /\ compile_out c1 <> compile_out c2.
Proof. exact compile_key_unsound_refuted. Qed.
Theorem C06_compile_key_sound_without_literals : forall c1 c2,
  cc_literals c1 = false -> compile_key c1 = compile_key c2 -> compile_out c1 = compile_out c2.
Proof. exact compile_key_sound_without_literals. Qed.

Print Assumptions C06_memo_sound.
Print Assumptions C06_noop_rebuild.
Print Assumptions C06_key_input_injective.
Print Assumptions C06_flags_covered.
Print Assumptions C06_compile_key_unsound_refuted.
Print Assumptions C06_compile_key_sound_without_literals.
