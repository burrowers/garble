(* C07 — Missing or damaged cache entries are recomputed, never trusted. *)
From Verif Require Import Base.Bytes Model.PkgCache Proofs.PkgCacheProofs.

(* one entry, any sequence of deletions, emptyings and truncations of its index and data file:
   the reader answers "miss" or returns the complete original bytes, never anything else *)
Theorem C07_get_file_sound : forall orig fs,
  let e := fold_left apply_fault fs (put orig) in get_file e = Miss \/ get_file e = Hit orig.
Proof. exact get_file_sound. Qed.
Theorem C07_get_file_hit : forall orig, get_file (put orig) = Hit orig.
Proof. exact get_file_hit. Qed.

(* the reflection information garble loads for a package is the same whatever subset of the
   (correct) entries is present: for every import graph, every package, every cache state *)
Theorem C07_load_independent_of_cache :
  forall (A : Type) (base : A) (merge : A -> A -> A) (own : nat -> A -> A)
         (imports : nat -> list nat) (reflectp : nat -> bool) (rank : nat -> nat),
  (forall a, merge a base = a) ->
  (forall p i, In i (imports p) -> (rank i < rank p)%nat) ->
  forall n s p, (rank p < n)%nat -> correct A base merge own imports reflectp rank s ->
  fst (load A base merge own imports reflectp n s p) = spec A base merge own imports reflectp n p /\
  correct A base merge own imports reflectp rank (snd (load A base merge own imports reflectp n s p)).
Proof. exact load_independent_of_cache. Qed.

Print Assumptions C07_get_file_sound.
Print Assumptions C07_get_file_hit.
Print Assumptions C07_load_independent_of_cache.
