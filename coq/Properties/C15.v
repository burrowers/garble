(* C15 — Identical struct types get identical field names everywhere. *)
From Verif Require Import Base.Bytes Model.TypeShape Proofs.TypeShapeProofs.
Open Scope N_scope.

(* for any field-type universe and any identity on field types: struct types identical under
   Go's identity ignoring tags get the same salt, hence the same obfuscated name for every field,
   under every configuration (seeded or not) *)
Theorem C15_identical_same_hash : forall (ty : Type) (ident : ty -> ty -> Prop) (a b : list (field ty)),
  struct_identical ident a b -> struct_hash a = struct_hash b.
Proof. intros ty ident a b H. exact (struct_hash_shape ty a b (identical_shape ty ident a b H)). Qed.

Theorem C15_identical_same_field_names : forall (ty : Type) (ident : ty -> ty -> Prop) (a b : list (field ty)) c k e,
  struct_identical ident a b -> field_obf_name c a k e = field_obf_name c b k e.
Proof. intros ty ident a b c k e H. exact (field_obf_name_shape ty a b c k e (identical_shape ty ident a b H)). Qed.

(* tags never matter; instantiating a generic struct (substituting its field types) keeps the hash,
   hence the names; the package a struct is declared in never matters *)
Theorem C15_hash_ignores_tags : forall (ty : Type) (a : list (field ty)) (tags : field ty -> str),
  struct_hash (map (fun f => retag ty (tags f) f) a) = struct_hash a.
Proof. intros. apply struct_hash_map. reflexivity. Qed.

Theorem C15_hash_stable_under_instantiation : forall (ty : Type) (subst : ty -> ty) (a : list (field ty)),
  struct_hash (map (subst_field subst) a) = struct_hash a.
Proof. intros. apply struct_hash_map. reflexivity. Qed.

Theorem C15_hash_ignores_package : forall (ty : Type) (a : list (field ty)) p,
  struct_hash (map (repkg ty p) a) = struct_hash a.
Proof. intros. apply struct_hash_map. reflexivity. Qed.

Example C15_example :
  struct_hash [ {| f_name := [65]; f_embedded := false; f_tag := []; f_pkg := []; f_type := tt |};
                {| f_name := [66]; f_embedded := true; f_tag := [1]; f_pkg := [2]; f_type := tt |} ]
  = (9059 + 1 * ((65 * 16777619) mod u32) + 8861 + 2 * ((66 * 16777619) mod u32)) mod u32.
Proof. vm_compute. reflexivity. Qed.

Print Assumptions C15_identical_same_hash.
Print Assumptions C15_identical_same_field_names.
Print Assumptions C15_hash_ignores_tags.
Print Assumptions C15_hash_stable_under_instantiation.
Print Assumptions C15_hash_ignores_package.
