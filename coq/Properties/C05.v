(* C05 — Obfuscated literals evaluate to their original values.
   [run_*] is the decoder the emitted Go code implements (validated against the emitted source and
   the Go compiler by the check), [enc_*] what the generator does with its random choices. *)
From Verif Require Import Base.Bytes Model.Flags Model.Literals Model.LinkFlags Proofs.LiteralsProofs Proofs.LinkFlagsProofs.
From Verif Require Gen.LitConsts.
Open Scope N_scope.

(* the external-key layer wrapped around every byte-slice literal: any number of operations, any
   indices (repeated ones included), any operators, any key bytes *)
Theorem C05_layer_roundtrip : forall ops d,
  okb d -> Forall (step_ok (length d)) ops -> run_layer (enc_layer ops d) = d.
Proof. exact layer_roundtrip. Qed.

Theorem C05_atom_roundtrip : forall v c,
  v < 256 -> (match c with Some (_, k) => k < 256 | None => True end) -> run_atom (enc_atom v c) = v.
Proof. exact atom_roundtrip. Qed.

Theorem C05_simple_roundtrip : forall key o kops dops d,
  okb d -> okb key -> length key = length d ->
  Forall (step_ok (length key)) kops -> Forall (step_ok (length d)) dops ->
  let '(kl, dl, o') := enc_simple key o kops dops d in run_simple kl dl o' = d.
Proof. exact simple_roundtrip. Qed.

(* swap: any even or odd list of positions below the length, repeated and coinciding ones included *)
Theorem C05_swap_roundtrip : forall pos o shift d,
  okb d -> Forall (pair_ok (length d)) (pairs_from 0 pos) ->
  run_swap_from 0 pos (inv o) shift (enc_swap_data pos o shift d) = d.
Proof. exact swap_data_roundtrip. Qed.

Theorem C05_seed_roundtrip : forall o d, okb d -> forall s, s < 256 ->
  run_seed_from s (inv o) (enc_seed_from s o d) = d.
Proof. exact seed_roundtrip. Qed.

(* shuffle: any permutation placement, any per-byte operators, any index-key choices *)
Theorem C05_shuffle_roundtrip : forall ops key idxk sigma kas fops kops d,
  okb d -> okb key -> okb idxk -> length key = length d ->
  NoDup sigma -> length sigma = (2 * length d)%nat -> Forall (fun j => (j < 2 * length d)%nat) sigma ->
  Forall (step_ok (2 * length d)) fops -> Forall (step_ok (length idxk)) kops ->
  let '(fl, kl, args) := enc_shuffle ops key idxk sigma kas fops kops d in run_shuffle fl kl args = d.
Proof. exact shuffle_roundtrip. Qed.

(* the string wrapper (junk bytes around the data) and the byte-array copy with zero padding *)
Theorem C05_wrap_roundtrip : forall junk s d, (s <= length junk)%nat -> unwrap s (length d) (wrap junk s d) = d.
Proof. exact wrap_roundtrip. Qed.
Theorem C05_array_roundtrip : forall len d, (length d <= len)%nat ->
  length (to_array len d) = len /\ firstn (length d) (to_array len d) = d /\
  skipn (length d) (to_array len d) = repeat 0 (len - length d).
Proof. exact array_roundtrip. Qed.

(* split: n chunks visited through a permutation of n+2 state numbers, the switch cases in any
   (shuffled) order, the int key accumulator of the emitted loop against the byte accumulator of the
   generator: the state machine terminates and returns the data *)
Theorem C05_split_roundtrip : forall (n : nat) (idx : list N) (ps : list piece) (o : bop) (key0 : N)
    (cs : list (N * scase)) (data : bytes),
  length idx = S (S n) -> NoDup idx -> length ps = n -> key0 < 256 -> okb data ->
  length cs = S n -> NoDup (map fst cs) ->
  (forall k, (k < n)%nat -> In (nth k idx 0, CChunk (nth (S k) idx 0) (nth k ps (PAtom (0, None)))) cs) ->
  In (nth n idx 0, CDecrypt (nth (S n) idx 0) (inv o)) cs ->
  concat (map run_piece ps) = encrypt_from 0 o (split_key_from 0 (firstn (S n) idx) key0) data ->
  run_split (nth 0 idx 0) (nth (S n) idx 0) (key0, None) cs = Some data.
Proof. exact split_roundtrip. Qed.

(* non-vacuity: a one-chunk instance meets the hypotheses *)
Example C05_split_instance :
  run_split 1 0 (5, None)
    [(1, CChunk 2 (PAtom (ap Add 65 ((N.lxor (N.lxor (N.lxor 5 (1*0)) (2*1)) 0) mod 256), None)));
     (2, CDecrypt 0 Sub)] = Some [65].
Proof. vm_compute. reflexivity. Qed.

(* literals.go's constants (obfuscateString): the junk array is shorter than any literal that is obfuscated,
   so `append(junkBytes[:splitIdx], plainData...)` has to reallocate and cannot overwrite the junk suffix
   that is appended next; and the array is not empty, so `Intn(len(junkBytes))` does not panic *)
Theorem C05_consts : Gen.LitConsts.maxStringJunkBytes <= Gen.LitConsts.MinSize /\ 0 < Gen.LitConsts.minStringJunkBytes.
Proof. split; vm_compute; [discriminate | reflexivity]. Qed.

(* -ldflags=-X under -literals (computeLinkerVariableStrings): a string variable the linker sets must keep a
   plain initialiser.  -X=path.name=value selects a variable of the package being compiled exactly when the
   text before the LAST dot is the package's import path (or "main" for a main package) and the text after
   it is one of its variables; so import paths containing dots are handled *)
Theorem C05_linker_var_of_own_package : forall pkg_path pkg_name vars name v,
  existsb (N.eqb EQ) (pkg_path ++ 46 :: name) = false -> existsb (N.eqb 46) name = false -> mem name vars = true ->
  linker_var pkg_path pkg_name vars (pkg_path ++ 46 :: name ++ EQ :: v) = Some (name, v).
Proof. exact linker_var_of_own_package. Qed.
Theorem C05_linker_var_of_other_package : forall pkg_path pkg_name vars path name v,
  existsb (N.eqb EQ) (path ++ 46 :: name) = false -> existsb (N.eqb 46) name = false ->
  beq path pkg_path = false -> beq path s_mainpkg = false ->
  linker_var pkg_path pkg_name vars (path ++ 46 :: name ++ EQ :: v) = None.
Proof. exact linker_var_of_other_package. Qed.

Print Assumptions C05_layer_roundtrip.
Print Assumptions C05_atom_roundtrip.
Print Assumptions C05_simple_roundtrip.
Print Assumptions C05_swap_roundtrip.
Print Assumptions C05_seed_roundtrip.
Print Assumptions C05_shuffle_roundtrip.
Print Assumptions C05_split_roundtrip.
Print Assumptions C05_wrap_roundtrip.
Print Assumptions C05_array_roundtrip.
Print Assumptions C05_consts.
Print Assumptions C05_linker_var_of_own_package.
Print Assumptions C05_linker_var_of_other_package.
