(* Renaming keeps lexical resolution and interface satisfaction; which objects [decide] leaves alone;
   what a linkname directive is rewritten to (Model/Rename.v, Model/Linkname.v; C01, C13, C02). *)
From Verif Require Import Base.Bytes Base.Facts Model.Flags Proofs.FlagsProofs Model.Scope Model.Rename.
Open Scope N_scope.

Section R.
  Variable obj : Type.
  Variable rn : obj -> str.

  Lemma lookup_in (s : scope obj) n o : lookup s n = Some o -> In (n, o) s.
  Proof.
    induction s as [|[m o'] r IH]; cbn; [discriminate|]. destruct (beq n m) eqn:E.
    - intros H. injection H as ->. apply beq_eq in E. subst. left; reflexivity.
    - intros H. right. apply IH, H.
  Qed.

  Lemma lookup_app (s r : scope obj) n :
    lookup (s ++ r) n = match lookup s n with Some o => Some o | None => lookup r n end.
  Proof. induction s as [|[m o] s IH]; [reflexivity|]. cbn [app lookup]. destruct (beq n m); [reflexivity | exact IH]. Qed.

  (* a chain resolves like its scopes laid end to end *)
  Lemma resolve_lookup (c : list (scope obj)) n : resolve c n = lookup (bindings c) n.
  Proof.
    induction c as [|s r IH]; [reflexivity|]. unfold bindings. cbn [resolve concat]. rewrite lookup_app, IH. reflexivity.
  Qed.

  Lemma resolve_in (c : list (scope obj)) n o : resolve c n = Some o -> In (n, o) (bindings c).
  Proof. rewrite resolve_lookup. apply lookup_in. Qed.

  Lemma bindings_rename (c : list (scope obj)) : bindings (rename_chain rn c) = rename_scope rn (bindings c).
  Proof. symmetry. exact (concat_map _ c). Qed.

  (* Half of [no_clash] is all that resolution needs: bindings with different names get different new
     names.  The other half (equal names, equal new names) would rule out a renamed variable that
     shadows a kept constant of the same name. *)
  Definition separates (c : list (scope obj)) : Prop :=
    forall n1 o1 n2 o2, In (n1, o1) (bindings c) -> In (n2, o2) (bindings c) -> rn o1 = rn o2 -> n1 = n2.

  (* the first binding of n among s is still found under its new name: none of the earlier ones took it *)
  Lemma lookup_rename (c : list (scope obj)) (s : scope obj) n o :
    separates c -> incl s (bindings c) -> lookup s n = Some o ->
    lookup (rename_scope rn s) (rn o) = Some o.
  Proof.
    intros Hsep Hsub. unfold rename_scope. induction s as [|[m o'] r IH]; [discriminate|].
    apply incl_cons_inv in Hsub as [Hm Hsub]. cbn [map lookup snd]. destruct (beq n m) eqn:E.
    - intros [= ->]. rewrite beq_refl. reflexivity.
    - intros H. destruct (beq (rn o) (rn o')) eqn:Hb; [|exact (IH Hsub H)].
      apply beq_eq, (Hsep n o m o' (Hsub _ (lookup_in r n o H)) Hm) in Hb. subst m. rewrite beq_refl in E. discriminate.
  Qed.

  Theorem separates_preserves_resolution (c : list (scope obj)) n o :
    separates c -> resolve c n = Some o -> resolve (rename_chain rn c) (rn o) = Some o.
  Proof.
    intros Hsep. rewrite !resolve_lookup, bindings_rename. apply (lookup_rename c); [exact Hsep | apply incl_refl].
  Qed.

  Theorem separates_no_capture (c : list (scope obj)) n o o' :
    separates c -> In (n, o) (bindings c) -> resolve (rename_chain rn c) (rn o) = Some o' -> In (n, o') (bindings c).
  Proof.
    intros Hsep Hin Hr. apply resolve_in in Hr. rewrite bindings_rename in Hr.
    apply in_map_iff in Hr as ([m o2] & [= Hrn ->] & Hm). rewrite (Hsep n o m o' Hin Hm (eq_sym Hrn)). exact Hm.
  Qed.

  Lemma no_clash_separates (c : list (scope obj)) : no_clash rn c -> separates c.
  Proof. intros H n1 o1 n2 o2 H1 H2. apply (H n1 o1 n2 o2 H1 H2). Qed.

  (* renaming preserves resolution: whatever a name resolved to, the new name of that object
     resolves to the same object in the renamed scopes *)
  Theorem rename_preserves_resolution (c : list (scope obj)) n o :
    no_clash rn c -> resolve c n = Some o -> resolve (rename_chain rn c) (rn o) = Some o.
  Proof. intros Hnc. apply separates_preserves_resolution, no_clash_separates, Hnc. Qed.

  (* and a name that resolved to nothing visible is not captured by a renamed binding either *)
  Theorem rename_no_capture (c : list (scope obj)) n o :
    no_clash rn c -> In (n, o) (bindings c) ->
    forall o', resolve (rename_chain rn c) (rn o) = Some o' -> exists n', In (n', o') (bindings c) /\ n' = n.
  Proof.
    intros Hnc Hin o' Hr. exists n. split; [|reflexivity].
    exact (separates_no_capture c n o o' (no_clash_separates c Hnc) Hin Hr).
  Qed.
End R.

Lemma implements_incl t i : implements t i = true <-> incl i t.
Proof. unfold implements. rewrite forallb_forall. split; intros H m Hm; apply mem_In, H, Hm. Qed.

(* interface satisfaction is preserved when no method of the type gets the new name of a different
   method of the interface *)
Theorem implements_preserved (f : str -> str) (t i : list str) :
  (forall a b, In a t -> In b i -> f a = f b -> a = b) ->
  implements (map f t) (map f i) = implements t i.
Proof.
  intros Hinj. apply eq_true_iff_eq. rewrite !implements_incl. split; [|apply incl_map].
  intros H m Hm. destruct (proj1 (in_map_iff f t (f m)) (H _ (in_map f i m Hm))) as (y & Hy & Hin).
  rewrite <- (Hinj y m Hin Hm Hy). exact Hin.
Qed.

(* [decide] is a chain of tests; each one ahead of the test a theorem is about answers Keep as
   well, and [if_same] steps over it *)
Theorem decide_keeps_entry_points intr to_obf d :
  (o_kind d = KFunc \/ o_kind d = KMethod) ->
  (beq (o_name d) s_main || beq (o_name d) s_init || beq (o_name d) s_TestMain) = true ->
  decide intr to_obf d = Keep.
Proof.
  intros Hk Hn. unfold decide. do 3 apply if_same.
  destruct Hk as [-> | ->]; do 2 apply if_same; rewrite Hn; reflexivity.
Qed.

Theorem decide_keeps_exported_methods intr to_obf d :
  o_kind d = KMethod -> o_exported d = true -> decide intr to_obf d = Keep.
Proof. intros Hk He. unfold decide. do 3 apply if_same. rewrite Hk. apply if_same. rewrite He. reflexivity. Qed.

Theorem decide_keeps_tests intr to_obf d :
  o_kind d = KFunc -> is_prefix s_Test (o_name d) = true -> o_test_sig d = true -> decide intr to_obf d = Keep.
Proof. intros Hk Hp Ht. unfold decide. do 3 apply if_same. rewrite Hk. do 3 apply if_same. rewrite Hp, Ht. reflexivity. Qed.

Theorem decide_keeps_plain_packages intr to_obf d :
  to_obf (o_pkg d) = false -> decide intr to_obf d = Keep.
Proof. intros H. unfold decide. do 2 apply if_same. rewrite H. reflexivity. Qed.

Theorem decide_keeps_universe intr to_obf d : o_universe d = true -> decide intr to_obf d = Keep.
Proof. intros H. unfold decide. rewrite H. reflexivity. Qed.

(* everything else that is a variable, type, field, function or unexported method of an
   obfuscated package is hashed *)
Theorem decide_hashes_the_rest intr to_obf d :
  o_universe d = false -> special_keep (o_pkg d) (o_name d) = false -> to_obf (o_pkg d) = true ->
  match o_kind d with
  | KVar | KType => decide intr to_obf d = HashPkg
  | KField => decide intr to_obf d = HashStruct
  | _ => True
  end.
Proof.
  intros Hu Hs Ht. unfold decide. rewrite Hu, Hs, Ht. destruct (o_kind d); cbn; auto.
Qed.

(* linkname rewriting agrees with the naming decision *)
From Verif Require Import Model.Linkname.

Section LN.
  Variable lookup_pkg : str -> lookup_result.
  Variable hname : str -> str -> str.
  Variable ipath : str -> str.
  Variable intr : list (str * list str).
  Variable cur_path : str.
  Variable cur_obf : bool.
  Variable exported : str -> bool.

  (* [cut_dot] is [Base.Facts.cut_at DOT], by conversion *)
  Lemma cut_dot_nodot s : existsb (N.eqb DOT) s = false -> cut_dot s = None.
  Proof. exact (cut_at_none DOT s). Qed.

  Lemma cut_dot_app a b : existsb (N.eqb DOT) a = false -> cut_dot (a ++ DOT :: b) = Some (a, b).
  Proof. exact (cut_at_app DOT a b). Qed.

  (* "path.fname" with no further dot differs from every string whose part behind its first dot has a dot *)
  Lemma plain_target_neq path fname s :
    existsb (N.eqb DOT) path = false -> existsb (N.eqb DOT) fname = false ->
    match cut_dot s with Some (_, b) => existsb (N.eqb DOT) b | None => true end = true ->
    beq (path ++ DOT :: fname) s = false.
  Proof.
    intros Hp Hf Hs. apply not_true_is_false. intros Hb. apply beq_eq in Hb. subst s.
    rewrite (cut_dot_app path fname Hp), Hf in Hs. discriminate.
  Qed.

  (* a plain function target "path.fname" where neither path nor fname has a dot (std and
     single-element paths); dotted paths are covered by the oracle stream of the check only *)
  Theorem linkname_function_agrees local path fname :
    existsb (N.eqb DOT) path = false -> existsb (N.eqb DOT) fname = false ->
    ends_with s_under_test path = false ->
    lookup_pkg path = Found true -> intrinsic intr path fname = false ->
    beq (path ++ DOT :: fname) s_main_main = false ->
    snd (linkname_rewrite lookup_pkg hname ipath intr cur_path cur_obf exported local (path ++ DOT :: fname))
    = ipath path ++ [DOT] ++ hname path fname.
  Proof.
    intros Hp Hf Ht Hl Hi. unfold linkname_rewrite.
    (* the target is not empty (the last hypothesis stays in the goal so that the destruct reaches it) *)
    destruct (path ++ DOT :: fname) as [|c r] eqn:E; [destruct (app_cons_not_nil _ _ _ (eq_sym E))|].
    rewrite <- E. intros Hmm.
    (* it has a dot and is none of the three names that are left alone *)
    rewrite existsb_app. cbn [existsb]. rewrite orb_true_r, Hmm.
    rewrite (plain_target_neq path fname s_main_inittask Hp Hf eq_refl), (plain_target_neq path fname s_runtime_inittask Hp Hf eq_refl).
    (* its first dot ends the path of a package that is known and obfuscated *)
    cbn [negb orb find_pkg]. rewrite (cut_dot_app path fname Hp). cbn [app]. rewrite Ht, Hl.
    (* the function is no intrinsic and has no receiver *)
    rewrite Hi. unfold rewrite_foreign. rewrite (cut_dot_nodot fname Hf). reflexivity.
  Qed.

  (* targets in packages garble does not know, or does not obfuscate, are left byte for byte *)
  Theorem linkname_unknown_unchanged local new :
    (forall p, lookup_pkg p = NotFound) ->
    snd (linkname_rewrite lookup_pkg hname ipath intr cur_path cur_obf exported local new) = new.
  Proof.
    intros Hnf. unfold linkname_rewrite. destruct new as [|c r]; [reflexivity|].
    destruct (negb _); [reflexivity|]. destruct (_ || _); [reflexivity|].
    assert (H : forall fuel pre rest, find_pkg lookup_pkg fuel pre rest = inl None \/ find_pkg lookup_pkg fuel pre rest = inr false).
    { induction fuel as [|f IH]; intros pre rest; [right; reflexivity|]. cbn [find_pkg].
      destruct (cut_dot rest) as [[a b]|]; [|left; reflexivity].
      destruct (ends_with _ _); [apply IH|]. rewrite Hnf. apply IH. }
    destruct (H (S (length (c :: r))) [] (c :: r)) as [-> | ->]; reflexivity.
  Qed.
End LN.
