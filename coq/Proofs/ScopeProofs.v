(* GOGARBLE patterns (C14): the glob matcher against its relational specification, and which packages a
   pattern list selects. *)
From Coq Require Import PeanoNat.
From Verif Require Import Base.Bytes Base.Facts Model.Flags Model.Names Model.Scope.
Open Scope N_scope.

(* glob against its relational specification *)
Inductive Glob : str -> str -> Prop :=
| G_nil : Glob [] []
| G_star_skip p s : Glob p s -> Glob (STAR :: p) s
| G_star_eat p x s : x <> SLASH -> Glob (STAR :: p) s -> Glob (STAR :: p) (x :: s)
| G_q p x s : x <> SLASH -> Glob p s -> Glob (QUESTION :: p) (x :: s)
| G_lit c p s : c <> STAR -> c <> QUESTION -> Glob p s -> Glob (c :: p) (c :: s).

Lemma glob_star_unfold p' s :
  glob (STAR :: p') s = glob p' s || match s with x :: s' => negb (x =? SLASH) && glob (STAR :: p') s' | [] => false end.
Proof. destruct s; reflexivity. Qed.

Theorem glob_spec p : forall s, glob p s = true <-> Glob p s.
Proof.
  intros s. split.
  - revert s. induction p as [|c p IH]; intros s H.
    + destruct s; [constructor | discriminate].
    + destruct (N.eqb_spec c STAR) as [->|Hs].
      * (* the star matches nothing, or one more byte that is no slash *)
        induction s as [|x s IHs]; rewrite glob_star_unfold in H; apply orb_true_iff in H as [H|H].
        -- exact (G_star_skip _ _ (IH _ H)).
        -- discriminate.
        -- exact (G_star_skip _ _ (IH _ H)).
        -- apply andb_true_iff in H as [Hx H]. apply negb_true_iff, N.eqb_neq in Hx. exact (G_star_eat _ _ _ Hx (IHs H)).
      * cbn [glob] in H. rewrite (proj2 (N.eqb_neq c STAR) Hs) in H.
        destruct (N.eqb_spec c QUESTION) as [->|Hq]; (destruct s as [|x s]; [discriminate|]); apply andb_true_iff in H as [Hx H].
        -- apply negb_true_iff, N.eqb_neq in Hx. exact (G_q _ _ _ Hx (IH _ H)).
        -- apply N.eqb_eq in Hx. subst x. exact (G_lit _ _ _ Hs Hq (IH _ H)).
  - intros H. induction H as [|p s _ IH|p x s Hx _ IH|p x s Hx _ IH|c p s Hs Hq _ IH].
    + reflexivity.
    + rewrite glob_star_unfold, IH. reflexivity.
    + rewrite glob_star_unfold, IH, (proj2 (N.eqb_neq _ _) Hx). apply orb_true_r.
    + change (glob (QUESTION :: p) (x :: s)) with (negb (x =? SLASH) && glob p s).
      rewrite IH, (proj2 (N.eqb_neq _ _) Hx). reflexivity.
    + cbn [glob]. rewrite (proj2 (N.eqb_neq _ _) Hs), (proj2 (N.eqb_neq _ _) Hq), N.eqb_refl, IH. reflexivity.
Qed.

Theorem runtime_never rad g p :
  never_obfuscated rad (decision_path p) = true -> to_obfuscate rad g p = false.
Proof. intros H. unfold to_obfuscate. rewrite H. reflexivity. Qed.

Theorem selects_exactly rad g p :
  never_obfuscated rad (decision_path p) = false -> p_nfiles p <> O ->
  always_obfuscated p (decision_path p) = false ->
  to_obfuscate rad g p = match_prefix_patterns g (decision_path p).
Proof.
  intros Hn Hf Ha. unfold to_obfuscate. rewrite Hn, Ha.
  destruct (Nat.eqb_spec (p_nfiles p) 0); [contradiction | reflexivity].
Qed.

Theorem plain_untouched rad keep c p e :
  to_obfuscate rad (c_gogarble c) p = false ->
  obf_pkg_name rad c p e = p_name p /\
  (obf_import_path rad keep c p = p_import_path p \/ obf_import_path rad keep c p = s_main).
Proof.
  intros H. unfold obf_pkg_name, obf_import_path. rewrite H. split.
  - rewrite orb_true_r. reflexivity.
  - destruct (beq (p_name p) s_main && _); [right | left]; reflexivity.
Qed.

Theorem nothing_matches_error_iff rad g pkgs :
  matches_nothing_error rad g pkgs = true <->
  (forall p, In p pkgs -> to_obfuscate rad g p = false) /\ match_prefix_patterns g s_runtime = false.
Proof. unfold matches_nothing_error. rewrite andb_true_iff, !negb_true_iff, existsb_false. reflexivity. Qed.

Definition literal_pattern (g : str) : bool :=
  forallb (fun c => negb (c =? STAR) && negb (c =? QUESTION) && negb (c =? COMMA)) g.

Lemma glob_literal g : literal_pattern g = true -> forall s, glob g s = beq g s.
Proof.
  induction g as [|c g IH]; intros H s; [reflexivity|].
  cbn [literal_pattern forallb] in H. rewrite !andb_true_iff, !negb_true_iff in H. destruct H as [[[H1 H2] H3] H4].
  cbn [glob]. rewrite H1, H2. destruct s as [|x s]; [reflexivity|].
  rewrite (IH H4). rewrite N.eqb_sym. reflexivity.
Qed.

Lemma split_comma_nocomma s cur :
  forallb (fun c => negb (c =? COMMA)) s = true -> split_comma s cur = [rev cur ++ s].
Proof.
  revert cur; induction s as [|c s IH]; intros cur H; cbn [split_comma]; [rewrite app_nil_r; reflexivity|].
  apply andb_true_iff in H as [H1 H2]. apply negb_true_iff in H1. rewrite H1.
  rewrite (IH (c :: cur) H2). cbn [rev]. rewrite <- app_assoc. reflexivity.
Qed.

Lemma count_slash_cons c s : count_slash (c :: s) = if c =? SLASH then S (count_slash s) else count_slash s.
Proof. unfold count_slash. cbn [filter]. rewrite N.eqb_sym. destruct (c =? SLASH); reflexivity. Qed.

Lemma cut_elems_spec t : forall n pre, cut_elems n t = Some pre ->
  count_slash pre = n /\ (t = pre \/ exists rest, t = pre ++ SLASH :: rest).
Proof.
  induction t as [|c t IH]; intros n pre H; cbn [cut_elems] in H.
  - destruct n; [injection H as <-; split; [reflexivity | left; reflexivity] | discriminate].
  - (* one more byte in front of a cut that the induction hypothesis describes *)
    assert (Hcons : forall n' r, cut_elems n' t = Some r ->
              count_slash (c :: r) = (if c =? SLASH then S n' else n') /\
              (c :: t = c :: r \/ exists rest, c :: t = (c :: r) ++ SLASH :: rest)).
    { intros n' r Hr. destruct (IH _ _ Hr) as [Hc Ht]. split; [rewrite count_slash_cons, Hc; reflexivity|].
      destruct Ht as [->|[rest ->]]; [left | right; exists rest]; reflexivity. }
    destruct (c =? SLASH) eqn:E; [destruct n as [|n]|].
    + injection H as <-. apply N.eqb_eq in E. subst c. split; [reflexivity | right; exists t; reflexivity].
    + destruct (cut_elems n t) as [r|] eqn:Hr; [|discriminate]. injection H as <-. apply (Hcons n r Hr).
    + destruct (cut_elems n t) as [r|] eqn:Hr; [|discriminate]. injection H as <-. apply (Hcons n r Hr).
Qed.

Lemma cut_elems_complete pre :
  cut_elems (count_slash pre) pre = Some pre /\
  forall rest, cut_elems (count_slash pre) (pre ++ SLASH :: rest) = Some pre.
Proof.
  induction pre as [|c pre [IH1 IH2]]; [split; reflexivity|].
  rewrite count_slash_cons. cbn [cut_elems app].
  destruct (c =? SLASH); rewrite IH1; (split; [reflexivity | intros rest; rewrite IH2; reflexivity]).
Qed.

Lemma cut_elems0_some t : exists pre, cut_elems 0 t = Some pre.
Proof.
  induction t as [|c t [pre IH]]; [exists []; reflexivity|].
  cbn [cut_elems]. rewrite IH. destruct (c =? SLASH); eexists; reflexivity.
Qed.

Lemma glob_star_noslash s : count_slash s = 0%nat -> glob [STAR] s = true.
Proof.
  induction s as [|x s IH]; [reflexivity|]. rewrite count_slash_cons, glob_star_unfold.
  destruct (x =? SLASH); [discriminate|]. intros H. rewrite (IH H). apply orb_true_r.
Qed.

(* the default GOGARBLE=* selects every path: its first element has no slash *)
Theorem default_matches_all t : match_prefix_patterns [STAR] t = true.
Proof.
  unfold match_prefix_patterns. change (split_comma [STAR] []) with [[STAR]].
  cbn [existsb]. rewrite orb_false_r. unfold match_one. change (count_slash [STAR]) with 0%nat.
  destruct (cut_elems0_some t) as [pre H]. rewrite H. apply glob_star_noslash, (cut_elems_spec t 0 pre H).
Qed.

(* a plain path pattern selects the package and everything below it *)
Theorem literal_pattern_selects_subtree g t :
  literal_pattern g = true -> g <> [] ->
  (match_prefix_patterns g t = true <-> t = g \/ exists rest, t = g ++ SLASH :: rest).
Proof.
  intros Hl Hne. unfold match_prefix_patterns.
  assert (Hnc : forallb (fun c => negb (c =? COMMA)) g = true).
  { unfold literal_pattern in Hl. rewrite forallb_forall in *. intros x Hx. specialize (Hl x Hx).
    rewrite !andb_true_iff in Hl. tauto. }
  rewrite (split_comma_nocomma g [] Hnc). cbn [rev app existsb]. rewrite orb_false_r.
  (* [match_one] tests g for emptiness first *)
  unfold match_one. destruct g as [|c0 g0] eqn:Eg; [congruence|]. rewrite <- Eg in *.
  split.
  - destruct (cut_elems (count_slash g) t) as [pre|] eqn:Hc; [|discriminate].
    rewrite (glob_literal g Hl). intros Hb. apply beq_eq in Hb. subst pre.
    exact (proj2 (cut_elems_spec _ _ _ Hc)).
  - destruct (cut_elems_complete g) as [H1 H2].
    intros [->|[rest ->]]; [rewrite H1 | rewrite H2]; rewrite (glob_literal g Hl); apply beq_refl.
Qed.
