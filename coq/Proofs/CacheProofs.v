(* Memoisation under a key that covers what the build reads (C06): a cache whose entries are cold
   outputs stays one, and every build answers as a cold build would. *)
From Verif Require Import Base.Bytes Model.Cache.
Open Scope N_scope.

Section M.
  Variable Cfg Key Out : Type.
  Variable key : Cfg -> Key.
  Variable F : Cfg -> Out.
  Variable key_eqb : Key -> Key -> bool.
  Hypothesis key_eqb_spec : forall a b, key_eqb a b = true <-> a = b.
  (* the key covers everything the build reads: equal keys, equal cold outputs *)
  Hypothesis key_sound : forall x y, key x = key y -> F x = F y.

  Definition inv (c : cache Key Out) : Prop := forall k o, In (k, o) c -> exists x, key x = k /\ o = F x.

  Lemma lookup_in k c o : lookup Key Out key_eqb k c = Some o -> In (k, o) c.
  Proof.
    induction c as [|[k' o'] r IH]; cbn; [discriminate|]. destruct (key_eqb k k') eqn:E.
    - intros H. injection H as ->. apply key_eqb_spec in E as ->. left. reflexivity.
    - intros H. right. exact (IH H).
  Qed.

  Lemma build_sound x c : inv c ->
    fst (fst (build Cfg Key Out key F key_eqb x c)) = F x /\ inv (snd (fst (build Cfg Key Out key F key_eqb x c))).
  Proof.
    intros Hc. unfold build. destruct (lookup Key Out key_eqb (key x) c) as [o|] eqn:E.
    - split; [|exact Hc]. destruct (Hc _ _ (lookup_in _ _ _ E)) as (y & Hy & ->). apply key_sound, Hy.
    - split; [reflexivity|]. intros k o [H|H]; [injection H as <- <-; exists x; auto | apply Hc, H].
  Qed.

  (* over every history of builds on a shared cache, each output is the cold build's output *)
  Theorem memo_sound h : forall c, inv c -> fst (run_history Cfg Key Out key F key_eqb h c) = map F h.
  Proof.
    induction h as [|x r IH]; intros c Hc; [reflexivity|]. cbn [run_history map].
    destruct (build_sound x c Hc) as [Ho Hi].
    destruct (build Cfg Key Out key F key_eqb x c) as [[o c1] b].
    specialize (IH c1 Hi). destruct (run_history Cfg Key Out key F key_eqb r c1) as [os c2]. cbn [fst] in *. congruence.
  Qed.

  (* rebuilding with nothing changed recompiles nothing *)
  Theorem noop_rebuild x c :
    let '(_, c1, _) := build Cfg Key Out key F key_eqb x c in
    snd (build Cfg Key Out key F key_eqb x c1) = false.
  Proof.
    unfold build. destruct (lookup Key Out key_eqb (key x) c) as [o|] eqn:E.
    - rewrite E. reflexivity.
    - cbn [lookup]. assert (H : key_eqb (key x) (key x) = true) by (apply key_eqb_spec; reflexivity). rewrite H. reflexivity.
  Qed.
End M.

(* the known defect: under -literals the compile output depends on -ldflags=-X but its key does not *)
Theorem compile_key_unsound_refuted :
  exists c1 c2, compile_key c1 = compile_key c2 /\ compile_out c1 <> compile_out c2.
Proof.
  exists {| cc_literals := true; cc_ldflags_x := [1]; cc_rest := [] |}, {| cc_literals := true; cc_ldflags_x := [2]; cc_rest := [] |}.
  split; [reflexivity | discriminate].
Qed.
(* without -literals the compile key is sound *)
Theorem compile_key_sound_without_literals c1 c2 :
  cc_literals c1 = false -> compile_key c1 = compile_key c2 -> compile_out c1 = compile_out c2.
Proof.
  unfold compile_out. intros H1 H. injection H as H2 H3. rewrite <- H2, H1, H3. reflexivity.
Qed.
