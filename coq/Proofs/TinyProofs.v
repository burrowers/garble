(* Lemmas about Model/Tiny.v (C10).  The graph is generated and has thousands of functions, so the
   closure check is also provided over a search tree instead of a list: same theorem, and the
   evaluation that discharges it stays small for the kernel and for coqchk. *)
From Coq Require Import MSetPositive.
From Verif Require Import Base.Bytes Base.Facts Model.Tiny.
Open Scope N_scope.

Lemma memN_in x l : memN x l = true <-> In x l.
Proof. apply (existsb_eqb_iff N.eqb N.eqb_eq). Qed.

(* a set that contains the sinks and is closed under callers contains everything that can reach a
   sink; membership is any predicate, so the set may be a list or a tree *)
Theorem closed_by_contains_reaching (mem : N -> bool) g sinks :
  forallb (fun fc => implb (existsb mem (snd fc)) (mem (fst fc))) g = true -> forallb mem sinks = true ->
  forall f, reaches g sinks f -> mem f = true.
Proof.
  intros Hc Hs f Hr. induction Hr as [f Hin | f c (cs & Hg & Hcin) _ IH].
  - exact (proj1 (forallb_forall _ _) Hs f Hin).
  - pose proof (proj1 (forallb_forall _ _) Hc (f, cs) Hg) as H. cbn in H.
    rewrite (proj2 (existsb_exists _ _) (ex_intro _ c (conj Hcin IH))) in H. exact H.
Qed.

Theorem closed_contains_reaching g sinks R :
  closed g R = true -> subset sinks R = true -> forall f, reaches g sinks f -> memN f R = true.
Proof. exact (closed_by_contains_reaching (fun x => memN x R) g sinks). Qed.

(* [frontier] with membership in [inner] and in R as predicates *)
Definition frontier_by (inI inR : N -> bool) (g : graph) : list (N * N) :=
  flat_map (fun fc => if inI (fst fc) then []
                      else map (fun c => (fst fc, c)) (filter (fun c => inR c && inI c) (snd fc))) g.
Lemma frontier_by_ext inI inI' inR inR' g : (forall x, inI x = inI' x) -> (forall x, inR x = inR' x) ->
  frontier_by inI inR g = frontier_by inI' inR' g.
Proof.
  intros HI HR. apply flat_map_ext. intros fc. rewrite HI. destruct (inI' (fst fc)); [reflexivity|].
  f_equal. apply filter_ext. intros c. rewrite HI, HR. reflexivity.
Qed.

Definition pset (l : list N) : PositiveSet.t := fold_right (fun x => PositiveSet.add (N.succ_pos x)) PositiveSet.empty l.
Definition pmem (s : PositiveSet.t) (x : N) : bool := PositiveSet.mem (N.succ_pos x) s.

Lemma memN_pset x l : memN x l = pmem (pset l) x.
Proof.
  induction l as [|y l IH]; [reflexivity|]. unfold pmem in *. cbn [memN existsb pset fold_right]. fold (memN x l) (pset l).
  rewrite IH. apply eq_true_iff_eq. rewrite orb_true_iff, N.eqb_eq. split.
  - intros H. apply PositiveSet.add_spec. destruct H as [->|H]; [left; reflexivity | right; exact H].
  - intros H. apply PositiveSet.add_spec in H as [H|H]; [left | right; exact H].
    rewrite <- (N.pos_pred_succ x), H. apply N.pos_pred_succ.
Qed.

(* The tree is passed as a value equal to [pset R], so that whoever evaluates the check builds it once.
   Meant for [eapply]: evaluating the first premise instantiates [s], the other two are then closed terms. *)
Theorem reaching_by_set g sinks R s : s = pset R ->
  forallb (fun fc => implb (existsb (pmem s) (snd fc)) (pmem s (fst fc))) g = true -> forallb (pmem s) sinks = true ->
  forall f, reaches g sinks f -> memN f R = true.
Proof.
  intros -> Hc Hs f Hr. rewrite memN_pset. exact (closed_by_contains_reaching (pmem (pset R)) g sinks Hc Hs f Hr).
Qed.

Lemma frontier_by_sets g inner R si sr : si = pset inner -> sr = pset R ->
  frontier g inner R = frontier_by (pmem si) (pmem sr) g.
Proof.
  intros -> ->. apply (frontier_by_ext (fun x => memN x inner) _ (fun x => memN x R)); intros x; apply memN_pset.
Qed.
