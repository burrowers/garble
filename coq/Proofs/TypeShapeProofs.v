(* The struct hash reads the names and the embeddedness of the fields, in order, and nothing else (C15). *)
From Verif Require Import Base.Bytes Model.TypeShape.
Open Scope N_scope.

Section P.
  Variable ty : Type.
  Variable ty_identical : ty -> ty -> Prop.

  (* all that the struct hash reads of a field *)
  Definition shape (f : field ty) : str * bool := (f_name f, f_embedded f).

  Lemma struct_hash_shape (a b : list (field ty)) : map shape a = map shape b -> struct_hash a = struct_hash b.
  Proof.
    unfold struct_hash. generalize 0 9059. revert b.
    induction a as [|f a IH]; intros [|g b] i acc H; try discriminate; [reflexivity|].
    injection H as Hn He H. cbn [struct_hash_from]. rewrite Hn, He. apply IH, H.
  Qed.

  Lemma struct_hash_map (g : field ty -> field ty) (a : list (field ty)) :
    (forall f, shape (g f) = shape f) -> struct_hash (map g a) = struct_hash a.
  Proof. intros H. apply struct_hash_shape. rewrite map_map. apply map_ext, H. Qed.

  Lemma field_obf_name_shape (a b : list (field ty)) c k e :
    map shape a = map shape b -> field_obf_name c a k e = field_obf_name c b k e.
  Proof.
    intros H. unfold field_obf_name. rewrite (struct_hash_shape a b H).
    apply (f_equal (fun l => nth_error l k)) in H. rewrite !nth_error_map in H.
    destruct (nth_error a k), (nth_error b k); try discriminate; [injection H as -> _|]; reflexivity.
  Qed.

  Lemma identical_shape (a b : list (field ty)) : struct_identical ty_identical a b -> map shape a = map shape b.
  Proof.
    intros H. induction H as [|f g a b (Hn & He & _) _ IH]; [reflexivity|].
    cbn [map]. unfold shape at 1 3. rewrite Hn, He, IH. reflexivity.
  Qed.

  (* the changes of a field that C15 shows the hash to ignore: another tag, another declaring package *)
  Definition retag (t : str) (f : field ty) : field ty :=
    {| f_name := f_name f; f_embedded := f_embedded f; f_tag := t; f_pkg := f_pkg f; f_type := f_type f |}.
  Definition repkg (p : str) (f : field ty) : field ty :=
    {| f_name := f_name f; f_embedded := f_embedded f; f_tag := f_tag f; f_pkg := p; f_type := f_type f |}.
End P.

Lemma struct_hash_from_lt ty (a : list (field ty)) : forall i acc, acc < u32 -> struct_hash_from i acc a < u32.
Proof.
  induction a as [|f a IH]; intros i acc H; [exact H|]. cbn [struct_hash_from]. apply IH.
  apply N.mod_lt. unfold u32. discriminate.
Qed.
Theorem struct_hash_lt ty (a : list (field ty)) : struct_hash a < u32.
Proof. apply struct_hash_from_lt. unfold u32. reflexivity. Qed.
