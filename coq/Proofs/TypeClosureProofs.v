(* The walk of reflect.go records exactly what reflection can reach (C08). *)
From Coq Require Import Arith.
From Verif Require Import Base.Bytes Base.Facts Model.TypeClosure.

Lemma obj_eqb_eq a b : obj_eqb a b = true <-> a = b.
Proof. destruct a, b; cbn; rewrite ?Nat.eqb_eq; split; congruence. Qed.
Lemma memo_In o l : memo o l = true <-> In o l.
Proof. apply (existsb_eqb_iff obj_eqb obj_eqb_eq). Qed.
Lemma addo_In x o l : In x (addo o l) <-> x = o \/ In x l.
Proof.
  unfold addo. destruct (memo o l) eqn:E.
  - split; [auto|]. intros [->|H]; [apply memo_In, E | exact H].
  - cbn. split; intros [H|H]; auto.
Qed.

(* the component types the walk goes on to, each with the field it records first *)
Definition children (t : ty) : list (option nat * ty) :=
  match t with
  | TLeaf | TNamed _ => []
  | TAlias r | TElem r => [(None, r)]
  | TStruct fs => map (fun p => (Some (fst p), snd p)) fs
  | TMap k v => [(None, k); (None, v)]
  | TFunc ps rs => map (fun t => (None, t)) (ps ++ rs)
  end.

Section P.
  Variable underlying : nat -> ty.
  Notation walk := (walk underlying).
  Notation reach := (reach underlying).

  (* the nested fixpoints of [direct] are [flat_map]s *)
  Lemma direct_children t : (forall id, t <> TNamed id) -> direct t = directs (children t).
  Proof.
    intros Hn. unfold directs. destruct t as [|id|r|fs|e|k v|ps rs]; cbn [children direct flat_map fst snd]; rewrite ?app_nil_r;
      try reflexivity.
    - destruct (Hn id eq_refl).
    - clear Hn. induction fs as [|[fid ft] l IH]; [reflexivity|]. cbn [map flat_map fst snd]. rewrite <- IH. reflexivity.
    - clear Hn. rewrite map_app, flat_map_app. f_equal; [induction ps as [|x l IH] | induction rs as [|x l IH]]; cbn; rewrite ?IH; reflexivity.
  Qed.

  (* for an alias or element type [walks] eta-expands the option the walk of the one child returns *)
  Lemma walk_children t f rec : (forall id, t <> TNamed id) -> walk (S f) t rec = walks (walk f) (children t) rec.
  Proof.
    intros Hn. destruct t as [|id|r|fs|e|k v|ps rs]; cbn [TypeClosure.walk children walks]; try reflexivity.
    - destruct (Hn id eq_refl).
    - destruct (walk f r rec); reflexivity.
    - destruct (walk f e rec); reflexivity.
  Qed.

  (* [reach] only looks at the direct objects of its type *)
  Definition reach_from (D : list obj) (o : obj) : Prop :=
    In o D \/ exists id, In (ONamed id) D /\ reach (underlying id) o.

  Lemma reach_from_direct t o : reach t o <-> reach_from (direct t) o.
  Proof.
    split.
    - intros H. inversion H; [left | right; exists id]; auto.
    - intros [H|(id & H1 & H2)]; [apply reach_direct | apply (reach_named underlying t id)]; assumption.
  Qed.

  Lemma reach_from_incl D D' o : incl D D' -> reach_from D o -> reach_from D' o.
  Proof. intros Hi [H|(id & H1 & H2)]; [left | right; exists id]; auto. Qed.

  (* What a walk, or a sequence of walks, whose types have the direct objects D does to the recorded
     set: it grows, it comes to hold D, every declared type it adds has the direct objects of its
     underlying type recorded at the end, and whatever it adds is reachable from D. *)
  Definition records (D rec rec' : list obj) : Prop :=
    incl rec rec' /\ incl D rec' /\
    (forall id, In (ONamed id) rec' -> In (ONamed id) rec \/ incl (direct (underlying id)) rec') /\
    (forall o, In o rec' -> In o rec \/ reach_from D o).

  Lemma records_seen D rec : incl D rec -> records D rec rec.
  Proof. intros H. split; [apply incl_refl | split; [exact H | split; intros ? ?; left; assumption]]. Qed.

  Lemma records_field fid rec : records [OField fid] rec (addo (OField fid) rec).
  Proof.
    split; [|split; [|split]].
    - intros x H. apply addo_In. right. exact H.
    - intros x [<-|[]]. apply addo_In. left. reflexivity.
    - intros id H. apply addo_In in H as [H|H]; [discriminate | left; exact H].
    - intros o H. apply addo_In in H as [->|H]; [right; left; left; reflexivity | left; exact H].
  Qed.

  Lemma records_app D1 D2 rec rec2 rec' : records D1 rec rec2 -> records D2 rec2 rec' -> records (D1 ++ D2) rec rec'.
  Proof.
    intros (Hm1 & Hc1 & Hk1 & Hs1) (Hm2 & Hc2 & Hk2 & Hs2). split; [|split; [|split]].
    - exact (incl_tran Hm1 Hm2).
    - apply incl_app; [exact (incl_tran Hc1 Hm2) | exact Hc2].
    - intros id H. destruct (Hk2 id H) as [H2|H2]; [|right; exact H2].
      destruct (Hk1 id H2) as [H1|H1]; [left; exact H1 | right; exact (incl_tran H1 Hm2)].
    - intros o H. destruct (Hs2 o H) as [H2|H2]; [|right; exact (reach_from_incl D2 _ o (incl_appr D1 (incl_refl D2)) H2)].
      destruct (Hs1 o H2) as [H1|H1]; [left; exact H1 | right; exact (reach_from_incl D1 _ o (incl_appl D2 (incl_refl D1)) H1)].
  Qed.

  Lemma walks_records w : (forall t rec rec', w t rec = Some rec' -> records (direct t) rec rec') ->
    forall ts rec rec', walks w ts rec = Some rec' -> records (directs ts) rec rec'.
  Proof.
    intros Hw. induction ts as [|[fo t] r IH]; intros rec rec' H; cbn [walks] in H.
    - injection H as <-. apply records_seen, incl_nil_l.
    - destruct (w t _) as [rec2|] eqn:E; [|discriminate]. apply Hw in E.
      apply (records_app _ (directs r) rec rec2 rec'); [|exact (IH _ _ H)].
      destruct fo as [fid|]; [exact (records_app [OField fid] _ _ _ _ (records_field fid rec) E) | exact E].
  Qed.

  Lemma walk_records fuel : forall t rec rec', walk fuel t rec = Some rec' -> records (direct t) rec rec'.
  Proof.
    induction fuel as [|f IH]; intros t rec rec' H; [discriminate|].
    assert (Hn : (exists id, t = TNamed id) \/ forall id, t <> TNamed id) by (destruct t; [right; discriminate | left; eauto | right; discriminate..]).
    destruct Hn as [[id ->]|Hn]; [|rewrite (walk_children t f rec Hn) in H; rewrite (direct_children t Hn); exact (walks_records _ IH _ _ _ H)].
    cbn [TypeClosure.walk] in H. destruct (memo (ONamed id) rec) eqn:E.
    - injection H as <-. apply records_seen. intros x [<-|[]]. apply memo_In, E.
    - destruct (IH _ _ _ H) as (Hm & Hc & Hk & Hs). split; [|split; [|split]].
      + intros x Hx. apply Hm. right. exact Hx.
      + intros x [<-|[]]. apply Hm. left. reflexivity.
      + intros id' H'. destruct (Hk id' H') as [[Heq|H1]|H1]; [injection Heq as <-; right; exact Hc | left; exact H1 | right; exact H1].
      + intros o H'. destruct (Hs o H') as [[<-|H1]|H1]; [right; left; left; reflexivity | left; exact H1|].
        right. right. exists id. split; [left; reflexivity | apply reach_from_direct, H1].
  Qed.

  (* completeness: whatever reflection can reach from t is recorded, also when the walk starts from a
     set earlier walks have left, as garble's does: such a set holds, for each of its declared types,
     the direct objects of the underlying type *)
  Theorem walk_complete fuel t rec R : walk fuel t rec = Some R ->
    (forall id, In (ONamed id) rec -> incl (direct (underlying id)) rec) -> forall o, reach t o -> In o R.
  Proof.
    intros H Hrec. destruct (walk_records _ _ _ _ H) as (Hm & Hc & Hk & _).
    assert (Hgen : forall t' o, reach t' o -> incl (direct t') R -> In o R).
    { intros t' o Hr. induction Hr as [t' o Hd | t' id o Hd _ IH]; intros Hi; [apply Hi, Hd|].
      apply IH. destruct (Hk id (Hi _ Hd)) as [Hid|Hu]; [|exact Hu]. exact (incl_tran (Hrec id Hid) Hm). }
    intros o Hr. exact (Hgen t o Hr Hc).
  Qed.

  (* soundness: nothing else is added *)
  Theorem walk_sound fuel t rec R : walk fuel t rec = Some R -> forall o, In o R -> In o rec \/ reach t o.
  Proof.
    intros H o Ho. destruct (walk_records _ _ _ _ H) as (_ & _ & _ & Hs).
    destruct (Hs o Ho) as [Hin|Hr]; [left; exact Hin | right; apply reach_from_direct, Hr].
  Qed.
End P.
