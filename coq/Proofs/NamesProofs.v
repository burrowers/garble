(* Lemmas about Model/Names.v: well-formedness of obfuscated names (C16, C02), salting (C12, C06). *)
From Verif Require Import Base.Bytes Base.Facts Base.Sha256 Base.Base64 Model.Names.
From Coq Require Import ZArith.
Open Scope N_scope.

(* base64 is a map of the alphabet over the 6-bit symbols of the input *)
Definition sextets (l : bytes) : list N := encode_with (fun v => v) l.

Lemma encode_with_map s l : encode_with s l = map s (sextets l).
Proof.
  unfold sextets. induction l as [l IH] using list_length_ind.
  destruct l as [|a [|b [|c l]]]; cbn [encode_with map]; try reflexivity.
  rewrite IH by (cbn; lia). reflexivity.
Qed.

Lemma sextets_lt l : Forall (fun b => b < 256) l -> Forall (fun v => v < 64) (sextets l).
Proof.
  unfold sextets. induction l as [l IH] using list_length_ind. intros H.
  destruct l as [|a l]; [constructor|]. apply Forall_cons_iff in H as [Ha H].
  destruct l as [|b l]; [repeat constructor; mod_lia|]. apply Forall_cons_iff in H as [Hb H].
  destruct l as [|c l]; [repeat constructor; mod_lia|]. apply Forall_cons_iff in H as [Hc H].
  repeat (constructor; [mod_lia|]). apply IH; [cbn; lia | exact H].
Qed.

(* 9 bytes are 72 bits are 12 symbols *)
Lemma encode_with_length9 s l : length l = 9%nat -> length (encode_with s l) = 12%nat.
Proof.
  intros H. do 10 (destruct l as [|? l]; cbn in H; try lia). reflexivity.
Qed.

(* the URL alphabet is the identifier characters and '-' *)
Definition ident_char (c : N) : bool := is_letter c || is_digit c.
Definition url_char (c : N) : bool := ident_char c || (c =? 45).

Lemma url_sym_char v : url_char (url_sym v) = true.
Proof.
  unfold url_sym, sym, url_char, ident_char, is_letter, is_lower, is_upper, is_digit, in_range.
  destruct (N.ltb_spec v 26); [lia|]. destruct (N.ltb_spec v 52); [lia|].
  destruct (N.ltb_spec v 62); [lia|]. destruct (N.eqb_spec v 62); lia.
Qed.

Lemma fix_dash_ident c : url_char c = true -> ident_char (fix_dash c) = true.
Proof.
  unfold url_char, fix_dash. destruct (c =? 45); [reflexivity|]. rewrite orb_false_r. exact (fun H => H).
Qed.

Lemma fix_dash_digit c : is_digit (fix_dash c) = true -> is_digit c = true.
Proof. unfold fix_dash. destruct (c =? 45); [discriminate | exact (fun H => H)]. Qed.

(* the name as a function of the symbols: every fix-up applies to the first, the dash one to the rest *)
Definition name_sextets (sum : bytes) : list N :=
  firstn (N.to_nat (hash_length sum)) (sextets (firstn needed_sum_bytes sum)).
Definition head_fix (i e : bool) (v : N) : N :=
  hd 0 (fix_export i e (map fix_dash (fix_first_digit [url_sym v]))).

Lemma name_of_sum_sextets sum i e :
  name_of_sum sum i e = fix_export i e (map fix_dash (fix_first_digit (map url_sym (name_sextets sum)))).
Proof. unfold name_of_sum, encode_url. rewrite encode_with_map, firstn_map. reflexivity. Qed.

Lemma hash_length_range sum : 6 <= hash_length sum <= 12.
Proof. unfold hash_length, min_hash_length, max_hash_length. mod_lia. Qed.

Lemma name_sextets_length sum :
  length sum = 32%nat -> length (name_sextets sum) = N.to_nat (hash_length sum).
Proof.
  intros Hs. pose proof (hash_length_range sum). unfold name_sextets, sextets.
  rewrite firstn_length, (encode_with_length9 _ (firstn needed_sum_bytes sum)); [lia|].
  rewrite firstn_length. unfold needed_sum_bytes. lia.
Qed.

Lemma name_length sum i e : length (name_of_sum sum i e) = length (name_sextets sum).
Proof.
  rewrite name_of_sum_sextets. destruct (name_sextets sum); [reflexivity|].
  cbn. rewrite !map_length. reflexivity.
Qed.

Lemma name_of_sum_shape sum i e :
  length sum = 32%nat ->
  name_of_sum sum i e =
  head_fix i e (hd 0 (name_sextets sum)) :: map (fun v => fix_dash (url_sym v)) (tl (name_sextets sum)).
Proof.
  intros Hs. rewrite name_of_sum_sextets.
  pose proof (hash_length_range sum). pose proof (name_sextets_length sum Hs) as Hl. revert Hl.
  destruct (name_sextets sum); cbn [length]; [lia|]. intros _.
  cbn. rewrite map_map. reflexivity.
Qed.

Lemma head_fix_spec i e v :
  is_letter (head_fix i e v) = true /\ (i = true -> is_upper (head_fix i e v) = e).
Proof.
  unfold head_fix. cbn [fix_first_digit map fix_export hd].
  pose proof (url_sym_char v) as Hc. revert Hc. generalize (url_sym v) as c. intros c Hc.
  (* a digit becomes 'A'..'J' and the dash 'a': what reaches the export fix-up is a letter or '_' *)
  assert (L : is_letter (fix_dash (if is_digit c then c + 17 else c)) = true).
  { unfold fix_dash. destruct (is_digit c) eqn:D; destruct (_ =? 45) eqn:E;
    unfold url_char, ident_char, is_letter, is_lower, is_upper, is_digit, in_range in *; lia. }
  revert L. generalize (fix_dash (if is_digit c then c + 17 else c)) as d. intros d L.
  (* the export fix-up turns '_' into 'Z' and otherwise switches the case where it must: a letter that is
     neither lower-case nor '_' is upper-case already, and the other way round *)
  destruct i; [|split; [exact L | discriminate]]. destruct e.
  - destruct (d =? 95) eqn:?; [|destruct (is_lower d) eqn:?];
    unfold is_letter, is_lower, is_upper, to_upper, in_range in *; lia.
  - destruct (is_upper d) eqn:?; unfold is_letter, is_lower, is_upper, to_lower, in_range in *; lia.
Qed.

Lemma letter_ident c : is_letter c = true -> ident_char c = true /\ is_digit c = false.
Proof. unfold ident_char, is_letter, is_lower, is_upper, is_digit, in_range. lia. Qed.

Definition first_char (l : str) : N := hd 0 l.

(* a name is a valid ASCII Go identifier (letters, digits, underscore; not starting with a digit) *)
Definition valid_name (n : str) : bool :=
  (Nat.leb 6 (length n)) && (Nat.leb (length n) 12) &&
  forallb ident_char n && negb (is_digit (first_char n)).

Theorem name_valid sum i e : length sum = 32%nat -> valid_name (name_of_sum sum i e) = true.
Proof.
  intros Hs. unfold valid_name.
  pose proof (hash_length_range sum). rewrite name_length, (name_sextets_length sum Hs).
  replace (Nat.leb 6 _ && Nat.leb _ 12) with true by lia.
  rewrite (name_of_sum_shape sum i e Hs). cbn [forallb first_char hd].
  destruct (letter_ident _ (proj1 (head_fix_spec i e (hd 0 (name_sextets sum))))) as [-> ->].
  cbn [andb negb]. rewrite andb_true_r. apply forallb_forall. intros c Hc.
  apply in_map_iff in Hc as (v & <- & _). apply fix_dash_ident, url_sym_char.
Qed.

(* exported exactly when the original identifier was exported *)
Theorem export_preserved sum e :
  length sum = 32%nat -> is_upper (first_char (name_of_sum sum true e)) = e.
Proof. intros Hs. rewrite (name_of_sum_shape sum true e Hs). apply head_fix_spec. reflexivity. Qed.

Lemma round_length st kw : length (round st kw) = length st.
Proof. do 8 (destruct st as [|? st]; [reflexivity|]). destruct st; reflexivity. Qed.

Lemma compress_length h b : length (compress h b) = length h.
Proof.
  unfold compress. rewrite map_length, combine_length.
  rewrite (fold_left_inv round (fun st => length st = length h)); [apply Nat.min_id | | reflexivity].
  intros st kw _ <-. apply round_length.
Qed.

Theorem sha256_length m : length (sha256 m) = 32%nat.
Proof.
  unfold sha256. set (st := fold_left _ _ _).
  assert (H : length st = 8%nat).
  { apply (fold_left_inv compress (fun h => length h = 8%nat)); [intros h b _ <-; apply compress_length | reflexivity]. }
  do 8 (destruct st as [|? st]; [discriminate H|]). destruct st; [reflexivity | discriminate H].
Qed.

Lemma word_bytes_lt w : w < w32 -> Forall (fun b => b < 256) (word_bytes w).
Proof.
  intros H. unfold word_bytes.
  repeat constructor; [apply N.div_lt_upper_bound; [discriminate | exact H] | apply N.mod_lt; discriminate ..].
Qed.

Lemma compress_lt h b : Forall (fun w => w < w32) (compress h b).
Proof.
  unfold compress. apply Forall_map, Forall_forall. intros p _. apply N.mod_lt. discriminate.
Qed.

Theorem sha256_bytes_ok m : bytes_ok (sha256 m) = true.
Proof.
  unfold sha256. apply bytes_ok_Forall, Forall_flat_map, (Forall_impl _ word_bytes_lt).
  apply (fold_left_inv compress); [intros; apply compress_lt | repeat constructor].
Qed.

Theorem hash_custom_valid salt seed name i e : valid_name (hash_custom salt seed name i e) = true.
Proof. apply name_valid, sha256_length. Qed.

Theorem hash_custom_export salt seed name e :
  is_upper (first_char (hash_custom salt seed name true e)) = e.
Proof. apply export_preserved, sha256_length. Qed.

(* two 6-bit symbols print alike after the dash fix-up iff equal or both in {'a' (26), '-' (62)} *)
Definition tail_equivb (a b : N) : bool :=
  (a =? b) || (((a =? 26) || (a =? 62)) && ((b =? 26) || (b =? 62))).

Definition range64 : list N := map N.of_nat (seq 0 64).

Lemma range64_in v : v < 64 -> In v range64.
Proof. intros Hv. apply in_map_iff. exists (N.to_nat v). split; [lia | apply in_seq; lia]. Qed.

Lemma tail_equiv_of_eq a b : a < 64 -> b < 64 ->
  fix_dash (url_sym a) = fix_dash (url_sym b) -> tail_equivb a b = true.
Proof.
  intros Ha Hb He.
  (* the 64 printed characters are bound by a let, so that the checker computes each once and not 64 times *)
  assert (T : let t := map (fun v => (v, fix_dash (url_sym v))) range64 in
              forallb (fun p => forallb (fun q => implb (snd p =? snd q) (tail_equivb (fst p) (fst q))) t) t = true)
    by (vm_compute; reflexivity).
  pose proof (proj1 (forallb_forall _ _) T _ (in_map _ _ a (range64_in a Ha))) as Ta.
  pose proof (proj1 (forallb_forall _ _) Ta _ (in_map _ _ b (range64_in b Hb))) as Tab.
  cbn [fst snd] in Tab. rewrite He, N.eqb_refl in Tab. exact Tab.
Qed.

(* at most four leading symbols print alike after all fix-ups, for each (is_ident, is_exported) *)
Definition head_class_size (i e : bool) (v : N) : nat :=
  length (filter (fun w => head_fix i e w =? head_fix i e v) range64).
Definition head_table_ok : bool :=
  forallb (fun ie => forallb (fun v => Nat.leb (head_class_size (fst ie) (snd ie) v) 4) range64)
          [(true, true); (true, false); (false, true); (false, false)].

Theorem head_classes_small : head_table_ok = true.
Proof.
  (* evaluated as it stands, the statement computes head_fix twice for each of 4 x 64 x 64 pairs of symbols,
     and the checker's evaluator shares none of that: count within the list of the 64 values instead,
     bound by a let so that it is computed once *)
  assert (H : forall i e, forallb (fun v => Nat.leb (head_class_size i e v) 4) range64 = true).
  { intros i e. apply forallb_forall. intros v Hv. unfold head_class_size.
    rewrite (filter_map_length (head_fix i e) (fun c => c =? head_fix i e v)).
    assert (T : let t := map (head_fix i e) range64 in
                forallb (fun x => Nat.leb (length (filter (fun c => c =? x) t)) 4) t = true)
      by (destruct i, e; vm_compute; reflexivity).
    exact (proj1 (forallb_forall _ _) T _ (in_map _ _ _ Hv)). }
  unfold head_table_ok. cbn [forallb fst snd]. rewrite !H. reflexivity.
Qed.

Lemma map_eq_Forall2 {A B} (f : A -> B) (P : A -> Prop) (R : A -> A -> Prop) l1 l2 :
  (forall a b, P a -> P b -> f a = f b -> R a b) ->
  Forall P l1 -> Forall P l2 -> map f l1 = map f l2 -> Forall2 R l1 l2.
Proof.
  intros HR H1. revert l2. induction H1 as [|a l1 Ha _ IH]; intros [|b l2] H2 E; try discriminate E; constructor.
  - injection E as E _. apply HR; [exact Ha | exact (Forall_inv H2) | exact E].
  - injection E as _ E. apply IH; [exact (Forall_inv_tail H2) | exact E].
Qed.

Lemma name_sextets_tl_lt sum : bytes_ok sum = true -> Forall (fun v => v < 64) (tl (name_sextets sum)).
Proof.
  intros H. assert (F : Forall (fun v => v < 64) (name_sextets sum)).
  { apply Forall_firstn, sextets_lt, Forall_firstn, bytes_ok_Forall, H. }
  destruct F; [constructor | assumption].
Qed.

(* equal names force (almost) equal hash prefixes *)
Theorem collision_requires_prefix_collision s1 s2 i e :
  length s1 = 32%nat -> length s2 = 32%nat -> bytes_ok s1 = true -> bytes_ok s2 = true ->
  name_of_sum s1 i e = name_of_sum s2 i e ->
  hash_length s1 = hash_length s2 /\
  Forall2 (fun a b => tail_equivb a b = true) (tl (name_sextets s1)) (tl (name_sextets s2)).
Proof.
  intros L1 L2 O1 O2 Heq. split.
  - apply (f_equal (@length N)) in Heq.
    rewrite !name_length, (name_sextets_length s1 L1), (name_sextets_length s2 L2) in Heq. lia.
  - rewrite (name_of_sum_shape s1 i e L1), (name_of_sum_shape s2 i e L2) in Heq. injection Heq as _ Heq.
    exact (map_eq_Forall2 _ _ _ _ _ tail_equiv_of_eq (name_sextets_tl_lt s1 O1) (name_sextets_tl_lt s2 O2) Heq).
Qed.

Definition no_byte (b : N) (l : bytes) : bool := forallb (fun c => negb (c =? b)) l.

(* g ++ f where g is free of sep and f is empty or starts with sep ([hd sep f = sep] says both):
   the split is unique *)
Lemma sep_split (sep : N) g1 g2 f1 f2 :
  no_byte sep g1 = true -> no_byte sep g2 = true -> g1 ++ f1 = g2 ++ f2 ->
  hd sep f1 = sep -> hd sep f2 = sep -> g1 = g2 /\ f1 = f2.
Proof.
  revert g2; induction g1 as [|x g1 IH]; intros [|y g2] H1 H2 H F1 F2; cbn in *.
  - auto.
  - subst f1. cbn in F1. subst y. rewrite N.eqb_refl in H2. discriminate.
  - subst f2. cbn in F2. subst x. rewrite N.eqb_refl in H1. discriminate.
  - injection H as -> H. apply andb_true_iff in H1 as [_ H1]. apply andb_true_iff in H2 as [_ H2].
    destruct (IH g2 H1 H2 H F1 F2) as [-> ->]. auto.
Qed.

(* seeded: the hash input is path ++ "|" ++ seed ++ name; injective in (path, seed, name) for
   seeds of one length and paths without '|' *)
Theorem seeded_input_injective p1 p2 s1 s2 n1 n2 :
  no_byte 124 p1 = true -> no_byte 124 p2 = true -> length s1 = length s2 ->
  (p1 ++ [124]) ++ s1 ++ n1 = (p2 ++ [124]) ++ s2 ++ n2 -> p1 = p2 /\ s1 = s2 /\ n1 = n2.
Proof.
  intros H1 H2 Hl H. rewrite <- !app_assoc in H.
  destruct (sep_split 124 _ _ _ _ H1 H2 H eq_refl eq_refl) as [-> H']. injection H' as H'.
  destruct (app_len_inj _ _ _ _ Hl H') as [-> ->]. auto.
Qed.

Lemma seed_present_eq c1 c2 : c_seed c1 = c_seed c2 -> seed_present c1 = seed_present c2.
Proof. unfold seed_present. intros ->. reflexivity. Qed.

(* seeded names depend on nothing but (seed, package path, name) *)
Theorem seeded_name_depends_only_on c1 c2 path aid1 aid2 name i e :
  c_seed c1 = c_seed c2 -> seed_present c1 = true ->
  hash_with_package c1 path aid1 name i e = hash_with_package c2 path aid2 name i e.
Proof.
  intros Hs Hp. unfold hash_with_package, pkg_salt.
  rewrite <- (seed_present_eq c1 c2 Hs), Hp, Hs. reflexivity.
Qed.

Theorem seeded_field_depends_only_on c1 c2 shape f e :
  c_seed c1 = c_seed c2 -> seed_present c1 = true ->
  hash_with_struct c1 shape f e = hash_with_struct c2 shape f e.
Proof.
  intros Hs Hp. unfold hash_with_struct, struct_salt.
  rewrite <- (seed_present_eq c1 c2 Hs), Hp, Hs. reflexivity.
Qed.

Definition seedless (c : gcfg) : Prop := c_seed c = [] /\ c_testobf c = [].

Definition flag_combo (c : gcfg) : bool * bool * bool := (c_literals c, c_tiny c, c_ctrlflow c).
(* the two [] stand where [build_flags] has the seed and the test obfuscator, both empty here *)
Definition flags_of_combo (k : bool * bool * bool) : bytes :=
  let '(l, t, cf) := k in
  (if l then s_literals else []) ++ (if t then s_tiny else []) ++ [] ++ (if cf then s_ctrlflow else []) ++ [].

Lemma build_flags_seedless c : seedless c -> build_flags c = flags_of_combo (flag_combo c).
Proof.
  intros [Hs Ht]. unfold build_flags, seed_present. rewrite Hs, Ht. reflexivity.
Qed.

Lemma flags_head k : hd 32 (flags_of_combo k) = 32.
Proof. destruct k as [[[] []] []]; reflexivity. Qed.

Lemma flags_of_combo_inj a b : flags_of_combo a = flags_of_combo b -> a = b.
Proof. destruct a as [[[] []] []], b as [[[] []] []]; intros H; (reflexivity || discriminate H). Qed.

(* unseeded: the input of the package salt is h ++ binary_id ++ " GOGARBLE=" ++ g ++ flags; injective
   for action ids and binary ids of one length and a GOGARBLE without a space *)
Theorem unseeded_input_injective h1 h2 c1 c2 :
  seedless c1 -> seedless c2 ->
  length h1 = length h2 -> length (c_binary_id c1) = length (c_binary_id c2) ->
  no_byte 32 (c_gogarble c1) = true -> no_byte 32 (c_gogarble c2) = true ->
  garble_hash_input h1 c1 = garble_hash_input h2 c2 ->
  h1 = h2 /\ c_binary_id c1 = c_binary_id c2 /\ c_gogarble c1 = c_gogarble c2 /\ flag_combo c1 = flag_combo c2.
Proof.
  intros S1 S2 Lh Lb G1 G2 H. unfold garble_hash_input in H.
  destruct (app_len_inj _ _ _ _ Lh H) as [-> H1].
  destruct (app_len_inj _ _ _ _ Lb H1) as [Hb H2].
  apply app_inv_head in H2.
  rewrite (build_flags_seedless c1 S1), (build_flags_seedless c2 S2) in H2.
  destruct (sep_split 32 _ _ _ _ G1 G2 H2 (flags_head _) (flags_head _)) as [Hg Hf].
  repeat split; auto. apply flags_of_combo_inj, Hf.
Qed.

(* with a space in GOGARBLE the encoding is ambiguous: two different configurations, one input *)
Theorem hash_input_ambiguous_refuted :
  exists h c1 c2, flag_combo c1 <> flag_combo c2 /\ garble_hash_input h c1 = garble_hash_input h c2.
Proof.
  exists [1],
    {| c_literals := false; c_tiny := true; c_ctrlflow := false; c_seed := []; c_gogarble := [42; 44]; c_binary_id := [2]; c_testobf := [] |},
    {| c_literals := false; c_tiny := false; c_ctrlflow := false; c_seed := []; c_gogarble := [42; 44] ++ s_tiny; c_binary_id := [2]; c_testobf := [] |}.
  split; [discriminate | vm_compute; reflexivity].
Qed.
