(* The protocol around the cached linker (C17, C18): one invariant, kept by every step of every process
   and by a crash at any point; the theorems are stated over it. *)
From Coq Require Import Arith.
From Verif Require Import Model.Linker.

Lemma upd_same f p v : upd f p v p = v.
Proof. unfold upd. rewrite Nat.eqb_refl. reflexivity. Qed.
Lemma upd_other f p q v : q <> p -> upd f p v q = f q.
Proof. intros H. unfold upd. destruct (Nat.eqb_spec q p); [contradiction | reflexivity]. Qed.

Lemma init_inv s : init_ok s -> inv s.
Proof.
  intros (Hh & Hp & Hd). split.
  - intros p Hc. rewrite Hp in Hc. discriminate.
  - rewrite Hh. exact Hd.
Qed.

Lemma crit_holder s p : inv s -> in_critical (pcs s p) = true -> holder s = Some p.
Proof. intros [H _]. apply H. Qed.

(* Process [p] goes to [v] and the lock from [h] to [h']: critical processes still hold the lock if
   [p] does when [v] is critical, and every other process that held it keeps it. *)
Lemma crit_upd {f h h' p v} :
  (forall q, in_critical (f q) = true -> h = Some q) ->
  (in_critical v = true -> h' = Some p) ->
  (forall q, q <> p -> h = Some q -> h' = Some q) ->
  forall q, in_critical (upd f p v q) = true -> h' = Some q.
Proof.
  intros Hf Hp Hq q. destruct (Nat.eq_dec q p) as [->|Hne].
  - rewrite upd_same. exact Hp.
  - rewrite upd_other by exact Hne. intros Hc. apply Hq; [exact Hne | apply Hf, Hc].
Qed.

(* what the invariant says of the disk while the holder is at [c]: the [match] inside [Linker.inv], which
   [inv_disk_at] relies on by conversion *)
Definition disk_at (c : pc) (dk : disk) : Prop :=
  match c with
  | Locked => disk_ok dk
  | Building => stamp dk = false
  | Built => stamp dk = false /\ link dk = LComplete
  | Using => stamp dk = true /\ link dk = LComplete
  | _ => False
  end.

Lemma inv_disk_at s p : inv s -> in_critical (pcs s p) = true -> disk_at (pcs s p) (d s).
Proof. intros Hinv Hp. pose proof Hinv as [_ Hd]. rewrite (crit_holder s p Hinv Hp) in Hd. exact Hd. Qed.

(* wherever the holder stops, the disk is acceptable for the next process *)
Lemma disk_at_ok c dk : disk_at c dk -> disk_ok dk.
Proof.
  intros H Hs. destruct c; try contradiction.
  - (* Locked *) exact (H Hs).
  - (* Building: no stamp *) congruence.
  - (* Built *) apply H.
  - (* Using *) apply H.
Qed.

(* the holder goes from [c] to [v], leaving a disk that is right for [v] *)
Lemma inv_move {s p c v dk} : inv s -> pcs s p = c -> in_critical c = true ->
  (disk_at c (d s) -> disk_at v dk) -> inv {| d := dk; holder := holder s; pcs := upd (pcs s) p v |}.
Proof.
  intros Hinv Hpc Hc Hv. rewrite <- Hpc in Hc, Hv. pose proof (crit_holder s p Hinv Hc) as Hh.
  split; cbn [d holder pcs].
  - apply (crit_upd (proj1 Hinv)); [intros _; exact Hh | auto].
  - rewrite Hh, upd_same. apply Hv, inv_disk_at; assumption.
Qed.

Theorem step_inv s s' : inv s -> step s s' -> inv s'.
Proof.
  intros Hinv Hst. pose proof Hinv as [Hcrit Hdisk].
  inversion Hst as [s0 p Hpc Hh | s0 p Hpc Hs Hl | s0 p Hpc Hor | s0 p Hpc | s0 p Hpc | s0 p Hpc | s0 p Hn1 Hn2].
  - (* lock *)
    rewrite Hh in Hdisk. split; cbn [d holder pcs].
    + apply (crit_upd Hcrit); [reflexivity | rewrite Hh; discriminate].
    + rewrite upd_same. exact Hdisk.
  - (* check -> use *)
    apply (inv_move Hinv Hpc eq_refl). intros Hd. split; [exact Hs | apply Hd, Hs].
  - (* check -> build: a stamp next to no file is what disk_ok excludes *)
    apply (inv_move Hinv Hpc eq_refl). intros Hd.
    destruct Hor as [Hf|Ha]; [exact Hf|]. destruct (stamp (d s)) eqn:E; [|reflexivity].
    rewrite (Hd E) in Ha. discriminate.
  - (* build done *)
    apply (inv_move Hinv Hpc eq_refl). intros Hd. split; [exact Hd | reflexivity].
  - (* stamp *)
    apply (inv_move Hinv Hpc eq_refl). intros [_ Hl]. split; [reflexivity | exact Hl].
  - (* unlock *)
    assert (Hc : in_critical (pcs s p) = true) by (rewrite Hpc; reflexivity).
    pose proof (crit_holder s p Hinv Hc) as Hhp. split.
    + (* the unlocker held the lock, so no other process did *)
      apply (crit_upd Hcrit); [discriminate | congruence].
    + exact (disk_at_ok _ _ (inv_disk_at s p Hinv Hc)).
  - (* crash *)
    split; cbn [d holder pcs].
    + apply (crit_upd Hcrit); [discriminate|].
      intros q Hne ->. rewrite (proj2 (Nat.eqb_neq q p) Hne). reflexivity.
    + destruct (holder s) as [h|]; [|exact Hdisk]. destruct (Nat.eqb_spec h p) as [<-|Hne].
      * exact (disk_at_ok (pcs s h) (d s) Hdisk).
      * rewrite upd_other by exact Hne. exact Hdisk.
Qed.

Theorem linker_inv s s' : init_ok s -> steps s s' -> inv s'.
Proof.
  intros Hi Hs. induction Hs as [|s1 s2 s3 _ IH Hst]; [apply init_inv, Hi|]. eapply step_inv; [apply IH, Hi | exact Hst].
Qed.

(* The theorems below hold in every state of the invariant, so by [linker_inv] in every reachable one.
   C17: whoever runs the cached linker holds the lock and sees a completely written file *)
Theorem run_sees_complete s p : inv s -> pcs s p = Using -> holder s = Some p /\ link (d s) = LComplete.
Proof.
  intros Hinv Hp. assert (Hc : in_critical (pcs s p) = true) by (rewrite Hp; reflexivity).
  split; [exact (crit_holder s p Hinv Hc)|].
  pose proof (inv_disk_at s p Hinv Hc) as Hd. rewrite Hp in Hd. apply Hd.
Qed.

(* ... and no two processes are ever in the critical section together *)
Theorem mutual_exclusion s p q : inv s -> in_critical (pcs s p) = true -> in_critical (pcs s q) = true -> p = q.
Proof.
  intros Hinv Hp Hq. pose proof (crit_holder s p Hinv Hp) as H1. pose proof (crit_holder s q Hinv Hq) as H2. congruence.
Qed.

(* C18: after any execution with any crashes, once the lock is free a fresh process run alone
   reaches the point of use with a completely written linker *)
Theorem crash_then_rerun_ok s p : inv s -> holder s = None -> pcs s p = Idle ->
  exists s', steps s s' /\ pcs s' p = Using /\ link (d s') = LComplete /\ stamp (d s') = true.
Proof.
  intros [_ Hd] Hh Hp. rewrite Hh in Hd.
  pose proof (steps_refl s) as S.
  eapply steps_step in S; [|apply (s_lock _ p Hp Hh)].
  destruct (stamp (d s)) eqn:Es.
  - (* stamp matches: by the invariant the file is complete, it is used as is *)
    pose proof (Hd Es) as Hl.
    eapply steps_step in S; [|apply (s_check_use _ p); [apply upd_same | exact Es | cbn; congruence]].
    eexists. split; [exact S|]. split; [apply upd_same | split; [exact Hl | exact Es]].
  - (* rebuild: Building, Built, stamp *)
    eapply steps_step in S; [|apply (s_check_build _ p); [apply upd_same | left; exact Es]].
    eapply steps_step in S; [|apply (s_build_done _ p), upd_same].
    eapply steps_step in S; [|apply (s_stamp _ p), upd_same].
    eexists. split; [exact S|]. split; [apply upd_same | split; reflexivity].
Qed.

(* outside the quantifier, noted: a linker file deleted by hand while its stamp stays, followed by a
   kill during the rebuild, leaves a partial file next to a matching stamp *)
Theorem missing_link_then_crash_refuted :
  exists s s', ~ disk_ok (d s) /\ steps s s' /\ holder s' = None /\ link (d s') = LPartial /\ stamp (d s') = true.
Proof.
  set (s0 := {| d := {| link := LAbsent; stamp := true |}; holder := None; pcs := fun _ => Idle |}).
  pose proof (steps_refl s0) as S.
  eapply steps_step in S; [|apply (s_lock _ 0); reflexivity].
  eapply steps_step in S; [|apply (s_check_build _ 0); [reflexivity | right; reflexivity]].
  eapply steps_step in S; [|apply (s_crash _ 0); discriminate].
  exists s0. eexists. split; [intros H; specialize (H eq_refl); discriminate|]. split; [exact S|]. auto.
Qed.
