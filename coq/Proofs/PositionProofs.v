(* The replacer behind `garble reverse` (first match wins, text without a key passes through) and the
   alignment of position directives with identifier tokens (C04). *)
From Verif Require Import Base.Bytes Model.Position.
Open Scope N_scope.

Lemma first_match_some pairs s k v : first_match pairs s = Some (k, v) -> In (k, v) pairs /\ k <> [] /\ is_prefix k s = true.
Proof.
  induction pairs as [|[k' v'] r IH]; cbn; [discriminate|].
  destruct (negb (beq k' []) && is_prefix k' s) eqn:E.
  - intros H. injection H as <- <-. apply andb_true_iff in E as [E1 E2]. split; [left; reflexivity|]. split; [|exact E2].
    intros ->. discriminate.
  - intros H. destruct (IH H) as (H1 & H2 & H3). split; [right; exact H1 | split; assumption].
Qed.

(* a match consumes at least one byte *)
Lemma first_match_skip pairs s k v :
  first_match pairs s = Some (k, v) -> (length (skipn (length k) s) < length s)%nat.
Proof.
  intros H. apply first_match_some in H as (_ & Hk & Hp). apply is_prefix_spec in Hp as [t ->].
  rewrite skipn_length. destruct k; [congruence | cbn; lia].
Qed.

(* text that contains no key passes through byte for byte *)
Theorem naive_replace_passthrough pairs s : key_occurs pairs s = false -> naive_replace pairs s = s.
Proof.
  unfold naive_replace. generalize (S (length s)) as fuel. intros fuel. revert s.
  induction fuel as [|f IH]; intros s Hk; [reflexivity|]. destruct s as [|c r]; [reflexivity|].
  cbn [naive_replace_fuel]. cbn [key_occurs] in Hk. destruct (first_match pairs (c :: r)); [discriminate|].
  f_equal. apply IH, Hk.
Qed.

(* any fuel above the length gives the same result: every round consumes a byte *)
Lemma naive_replace_fuel_enough pairs : forall f1 f2 s, (length s < f1)%nat -> (length s < f2)%nat ->
  naive_replace_fuel f1 pairs s = naive_replace_fuel f2 pairs s.
Proof.
  induction f1 as [|f1 IH]; intros f2 s H1 H2; [lia|]. destruct f2 as [|f2]; [lia|].
  destruct s as [|c r]; [reflexivity|]. cbn [naive_replace_fuel].
  destruct (first_match pairs (c :: r)) as [[k v]|] eqn:E; f_equal.
  - pose proof (first_match_skip _ _ _ _ E). apply IH; lia.
  - cbn [length] in *. apply IH; lia.
Qed.

(* a key at the front is replaced by the value of the FIRST pair whose key matches there *)
Theorem naive_replace_front pairs s k v :
  first_match pairs s = Some (k, v) -> naive_replace pairs s = v ++ naive_replace pairs (skipn (length k) s).
Proof.
  intros H. pose proof (first_match_skip _ _ _ _ H) as Hlt.
  destruct s as [|c r]; [cbn in Hlt; lia|].
  unfold naive_replace at 1. cbn [naive_replace_fuel]. rewrite H. f_equal.
  apply naive_replace_fuel_enough; lia.
Qed.

(* a key at the front is found in the first pair that has it, whatever is listed behind: so of the two pairs
   reverse emits per call site, "F.go:1" is listed before its prefix "F.go" *)
Theorem first_match_head k v r rest : k <> [] -> first_match ((k, v) :: r) (k ++ rest) = Some (k, v).
Proof.
  intros Hk. cbn [first_match].
  assert (H1 : beq k [] = false) by (destruct k; [contradiction | reflexivity]).
  assert (H2 : is_prefix k (k ++ rest) = true) by (apply is_prefix_spec; exists rest; reflexivity).
  rewrite H1, H2. reflexivity.
Qed.

Lemma split_lines_concat s : forall cur, concat (split_lines s cur) = rev cur ++ s.
Proof.
  induction s as [|c r IH]; intros cur; cbn [split_lines].
  - destruct cur; [reflexivity|]. cbn [concat]. reflexivity.
  - destruct (c =? 10).
    + cbn [concat]. rewrite IH. cbn [rev app]. rewrite <- app_assoc. reflexivity.
    + rewrite IH. cbn [rev]. rewrite <- app_assoc. reflexivity.
Qed.

(* reverseContent: nothing to replace => same bytes, not modified (any line endings) *)
Theorem reverse_content_passthrough pairs text :
  forallb (fun l => negb (key_occurs pairs l)) (split_lines text []) = true ->
  reverse_content pairs text = (text, false).
Proof.
  intros H. unfold reverse_content.
  assert (Hm : map (naive_replace pairs) (split_lines text []) = split_lines text []).
  { rewrite forallb_forall in H. rewrite <- (map_id (split_lines text [])) at 2. apply map_ext_in.
    intros l Hl. apply naive_replace_passthrough. specialize (H l Hl). apply negb_true_iff in H. exact H. }
  rewrite Hm. f_equal.
  - rewrite split_lines_concat. reflexivity.
  - assert (Hc : forall ls : list str, forallb (fun p => beq (fst p) (snd p)) (combine ls ls) = true).
    { induction ls as [|x ls IH]; [reflexivity|]. cbn. rewrite beq_refl. exact IH. }
    rewrite Hc. reflexivity.
Qed.

Theorem alignment_with_dot_skipped nodes next :
  length (call_offsets true nodes next) = ident_tokens nodes.
Proof.
  unfold ident_tokens. revert next. induction nodes as [|n r IH]; intros next; [reflexivity|].
  destruct n as [off|[|]]; cbn; auto.
Qed.

(* without skipping the dot of a dot import the sequences differ: every later call gets the
   directive of its predecessor identifier *)
Theorem alignment_refuted_without_skip :
  exists nodes, length (call_offsets false nodes None) <> ident_tokens nodes.
Proof. exists [PIdent true; PCall 5; PIdent false]. cbn. discriminate. Qed.

Theorem reverse_roundtrip_single_line c :
  paren_line c = head_line c -> reversed_line c = Some (paren_line c).
Proof. intros H. unfold reversed_line, obf_line. rewrite H, N.sub_diag. cbn. reflexivity. Qed.

Theorem reverse_multiline_refuted :
  exists c, head_line c < paren_line c /\ reversed_line c <> Some (paren_line c).
Proof. exists {| head_line := 16; paren_line := 17 |}. split; [reflexivity | cbn; discriminate]. Qed.
