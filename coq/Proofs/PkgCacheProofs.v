(* The per-package cache (C07, C18): an entry hit by any faults reads as a miss or as the original, and
   what a build loads does not depend on which correct entries are present. *)
From Coq Require Import Arith.
From Verif Require Import Base.Bytes Base.Facts Model.PkgCache.

(* what every fault keeps true of the entry written for [orig]: an index that parses records the
   original size, and the data is a prefix of the original (so it is the original when it has that size) *)
Definition entry_ok (orig : bytes) (e : entry) : Prop :=
  match e_index e with IValid size => size = length orig | _ => True end /\
  match e_data e with Some d => exists k, d = firstn k orig | None => True end.

Lemma fault_preserves orig e f : entry_ok orig e -> entry_ok orig (apply_fault e f).
Proof.
  unfold entry_ok. intros [Hi Hd]. destruct f; cbn [apply_fault e_data e_index].
  - (* index deleted *) split; [exact I | exact Hd].
  - (* data deleted *) split; [exact Hi | exact I].
  - (* index emptied *) split; [destruct (e_index e); exact I | exact Hd].
  - (* data emptied *) split; [exact Hi|]. destruct (e_data e); [exists 0%nat; reflexivity | exact I].
  - (* index truncated *) split; [destruct (e_index e); exact I | exact Hd].
  - (* data truncated *)
    split; [exact Hi|]. destruct (e_data e) as [d|]; [|exact I]. destruct Hd as [k ->].
    rewrite firstn_firstn. eexists. reflexivity.
Qed.

Theorem entry_ok_read orig e : entry_ok orig e -> get_file e = Miss \/ get_file e = Hit orig.
Proof.
  intros [Hi Hd]. unfold get_file.
  destruct (e_index e) as [| |size]; auto. destruct (e_data e) as [d|]; auto.
  destruct (Nat.eqb_spec (length d) size) as [E|E]; auto.
  (* a prefix as long as the whole *)
  right. destruct Hd as [k ->]. rewrite firstn_length in E. rewrite firstn_all2 by lia. reflexivity.
Qed.

(* whatever faults hit an entry, reading it gives a miss or the complete original, never other bytes *)
Theorem get_file_sound orig fs :
  let e := fold_left apply_fault fs (put orig) in get_file e = Miss \/ get_file e = Hit orig.
Proof.
  apply entry_ok_read, (fold_left_inv apply_fault (entry_ok orig)); [intros e f _; apply fault_preserves|].
  split; [reflexivity | exists (length orig); symmetry; apply firstn_all].
Qed.

(* with no fault at all the entry is a hit *)
Theorem get_file_hit orig : get_file (put orig) = Hit orig.
Proof. unfold get_file, put. cbn. rewrite Nat.eqb_refl. reflexivity. Qed.

Section G.
  Variable A : Type.
  Variable base : A.
  Variable merge : A -> A -> A.
  Variable own : nat -> A -> A.
  Variable imports : nat -> list nat.
  Variable reflectp : nat -> bool.
  Variable rank : nat -> nat.
  Hypothesis merge_base : forall a, merge a base = a.
  Hypothesis rank_imports : forall p i, In i (imports p) -> (rank i < rank p)%nat.

  Notation spec := (spec A base merge own imports reflectp).
  Notation compute := (compute A base merge own imports reflectp).

  Lemma spec_fuel_irrelevant : forall n m p, (rank p < n)%nat -> (rank p < m)%nat -> spec n p = spec m p.
  Proof.
    clear merge_base.   (* [lia] puts every hypothesis in sight into its proof term, and so into the closed statement *)
    induction n as [|n IH]; intros m p Hn Hm; [lia|]. destruct m as [|m]; [lia|]. cbn [PkgCache.spec].
    destruct (reflectp p); [|reflexivity]. f_equal. apply (fold_left_rel eq); [|reflexivity].
    intros acc acc' i Hi <-. pose proof (rank_imports p i Hi). f_equal. apply IH; lia.
  Qed.

  (* every entry present in the store is what an empty-cache build computes *)
  Definition correct (s : store A) : Prop := forall p a, s p = Some a -> a = spec (S (rank p)) p.

  Lemma correct_set s p a : correct s -> a = spec (S (rank p)) p -> correct (set A s p a).
  Proof.
    intros Hs Ha q b. unfold set. destruct (Nat.eqb_spec q p) as [->|Hne]; [intros H; injection H as <-; exact Ha | apply Hs].
  Qed.

  (* what [compute (S n)] does with one import: the step of its fold, written with the binders of the
     model so that the two are convertible *)
  Definition merge_import (n : nat) : A * store A -> nat -> A * store A :=
    fun '(acc, s) i =>
      match s i with
      | Some a => (merge acc a, s)
      | None => if negb (reflectp i) then (acc, s) else let '(a, s2) := compute n s i in (merge acc a, s2)
      end.

  Theorem compute_independent_of_cache : forall n s p, (rank p < n)%nat -> correct s ->
    fst (compute n s p) = spec n p /\ correct (snd (compute n s p)).
  Proof.
    induction n as [|n IH]; intros s p Hr Hs; [lia|]. cbn [PkgCache.compute PkgCache.spec].
    destruct (reflectp p) eqn:Ep; [|split; [reflexivity | exact Hs]].
    (* the fold over the imports keeps step with the fold of [spec] *)
    pose (R := fun (r : A * store A) acc => fst r = acc /\ correct (snd r)).
    assert (Hfold : R (fold_left (merge_import n) (imports p) (base, s))
                      (fold_left (fun acc i => merge acc (spec n i)) (imports p) base)).
    { apply (fold_left_rel R); [|split; [reflexivity | exact Hs]].
      intros [acc s0] acc' i Hi [Hacc Hs0]. subst acc'. pose proof (rank_imports p i Hi) as Hri. unfold merge_import.
      destruct (s0 i) as [a|] eqn:Esi.
      - (* an entry that is present is correct *)
        rewrite (Hs0 i a Esi), (spec_fuel_irrelevant (S (rank i)) n i) by lia. split; [reflexivity | exact Hs0].
      - destruct (reflectp i) eqn:Ei.
        + destruct (IH s0 i ltac:(lia) Hs0) as [H1 H2]. destruct (compute n s0 i) as [a s2]. cbn [fst snd] in *.
          subst a. split; [reflexivity | exact H2].
        + (* skipped: [spec] gives [base], which [merge] ignores *)
          assert (Hb : spec n i = base) by (destruct n; cbn [PkgCache.spec]; [|rewrite Ei]; reflexivity).
          rewrite Hb, merge_base. split; [reflexivity | exact Hs0]. }
    unfold R, merge_import in Hfold.   (* so that the destruct below finds the fold in Hfold as in the goal *)
    destruct (fold_left _ (imports p) (base, _)) as [acc s']. cbn [fst snd] in *. destruct Hfold as [-> Hc].
    split; [reflexivity|]. apply correct_set; [exact Hc|].
    rewrite (spec_fuel_irrelevant (S (rank p)) (S n) p) by lia. cbn [PkgCache.spec]. rewrite Ep. reflexivity.
  Qed.

  (* the reflection information loaded does not depend on which (correct) entries are present *)
  Theorem load_independent_of_cache n s p : (rank p < n)%nat -> correct s ->
    fst (load A base merge own imports reflectp n s p) = spec n p /\
    correct (snd (load A base merge own imports reflectp n s p)).
  Proof.
    intros Hr Hs. unfold load. destruct (s p) as [a|] eqn:E.
    - split; [|exact Hs]. rewrite (Hs p a E). apply spec_fuel_irrelevant; lia.
    - apply compute_independent_of_cache; assumption.
  Qed.
End G.
