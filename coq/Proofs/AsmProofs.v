(* Lemmas about Model/Asm.v (C01): assembly references are renamed with the Go side's function. *)
From Coq Require Import Arith.
From Verif Require Import Base.Bytes Base.Facts Model.Scope Model.Rename Model.Asm.
Open Scope N_scope.

Section P.
  Variable is_letter is_digit : N -> bool.
  Variable lookup_pkg : str -> bool * str * str.
  Variable hname : str -> str -> str.
  Variable intr : list (str * list str).
  Variable cur_name cur_key : str.
  Variable cur_obf : bool.
  Variable cur_ipath : str.

  Notation rw := (rewrite is_letter is_digit lookup_pkg hname intr cur_name cur_key cur_obf cur_ipath).
  Notation replace := (replace_asm_names is_letter is_digit lookup_pkg hname intr cur_name cur_key cur_obf cur_ipath).

  (* [cut_mid] is [Base.Facts.cut_at MID], by conversion *)
  Lemma cut_mid_none s : existsb (N.eqb MID) s = false -> cut_mid s = None.
  Proof. exact (cut_at_none MID s). Qed.

  (* text without a middle dot is copied *)
  Theorem asm_passthrough s : existsb (N.eqb MID) s = false -> replace s = s.
  Proof. intros H. unfold replace_asm_names. cbn [rewrite]. rewrite (cut_mid_none s H). reflexivity. Qed.

  Lemma cut_mid_first pre post : existsb (N.eqb MID) pre = false -> cut_mid (pre ++ MID :: post) = Some (pre, post).
  Proof. exact (cut_at_app MID pre post). Qed.

  Lemma take_while_stop p a c r : forallb p a = true -> p c = false -> take_while p (a ++ c :: r) = a.
  Proof. induction a as [|x a IH]; cbn; intros H Hc; [rewrite Hc; reflexivity|]. apply andb_true_iff in H as [H1 H2]. rewrite H1, (IH H2 Hc). reflexivity. Qed.

  Lemma split_suffix_none p pre0 : (match rev pre0 with [] => true | c :: _ => negb (p c) end) = true ->
    split_suffix p pre0 = (pre0, []).
  Proof.
    intros H. unfold split_suffix. destruct (rev pre0) as [|c r] eqn:E; cbn [take_while].
    - rewrite Nat.sub_0_r, firstn_all. reflexivity.
    - apply negb_true_iff in H. rewrite H. rewrite Nat.sub_0_r, firstn_all. reflexivity.
  Qed.

  Lemma last_mid_none s : forall i acc, existsb (N.eqb MID) s = false -> last_mid s i acc = acc.
  Proof.
    induction s as [|c r IH]; intros i acc H; [reflexivity|]. cbn [existsb last_mid] in *. apply orb_false_iff in H as [H1 H2].
    apply N.eqb_neq in H1. destruct (N.eqb_spec c MID) as [E|_]; [congruence|]. apply IH, H2.
  Qed.

  Hypothesis Hmid_letter : is_letter MID = false.     (* U+00B7 is punctuation (Po) *)
  Hypothesis Hmid_digit : is_digit MID = false.

  Lemma ident_is_path x : ident_rune is_letter is_digit x = true -> path_rune is_letter is_digit x = true.
  Proof.
    unfold path_rune. intros H. apply orb_true_iff in H as [H|H]; rewrite H; rewrite ?orb_true_r; reflexivity.
  Qed.
  Lemma ident_not_mid x : ident_rune is_letter is_digit x = true -> (MID =? x) = false.
  Proof.
    intros H. destruct (N.eqb_spec MID x) as [<-|]; [|reflexivity]. unfold ident_rune in H. rewrite Hmid_letter, Hmid_digit in H. discriminate.
  Qed.
  Lemma name_no_mid name : forallb (ident_rune is_letter is_digit) name = true -> existsb (N.eqb MID) name = false.
  Proof.
    intros H. apply existsb_false. intros x Hx. exact (ident_not_mid x (proj1 (forallb_forall _ _) H x Hx)).
  Qed.

  (* an unqualified reference  ·name  that is preceded by a rune which cannot be part of a package
     path and followed by one which can be part of neither a name nor a path: the name is replaced
     by the hash the Go side uses for the package's own objects (or kept, for unobfuscated packages
     and compiler intrinsics), everything before it is copied, the rest is rewritten in turn *)
  Theorem asm_local_reference pre name c post fuel :
    existsb (N.eqb MID) pre = false ->
    (match rev pre with [] => true | x :: _ => negb (path_rune is_letter is_digit x) end) = true ->
    forallb (ident_rune is_letter is_digit) name = true ->
    path_rune is_letter is_digit c = false -> c <> MID ->
    rw (S fuel) (pre ++ MID :: name ++ c :: post) =
    pre ++ [MID] ++ (if cur_obf && negb (intrinsic intr cur_key name) then hname cur_key name else name) ++ rw fuel (c :: post).
  Proof.
    intros Hpre Hlast Hname Hc Hcm. cbn [rewrite]. rewrite (cut_mid_first pre _ Hpre).
    rewrite (split_suffix_none _ pre Hlast).
    assert (Hci : ident_rune is_letter is_digit c = false).
    { destruct (ident_rune is_letter is_digit c) eqn:E; [|reflexivity]. rewrite (ident_is_path c E) in Hc. discriminate. }
    assert (Hrun : take_while (fun x => path_rune is_letter is_digit x || (x =? MID)) (name ++ c :: post) = name).
    { apply take_while_stop.
      - apply forallb_forall. intros x Hx. rewrite (ident_is_path x (proj1 (forallb_forall _ _) Hname x Hx)). reflexivity.
      - rewrite Hc. apply N.eqb_neq, Hcm. }
    rewrite Hrun, (last_mid_none name 0%nat None (name_no_mid name Hname)).
    rewrite (take_while_stop _ name c post Hname Hci). unfold drop. rewrite skipn_app, skipn_all, Nat.sub_diag. reflexivity.
  Qed.
End P.

(* the assembly side and the Go side decide alike for an ordinary package-level function: both hash
   exactly when the package is obfuscated and the name is not a compiler intrinsic *)
Theorem asm_go_agree intr to_obf d :
  o_kind d = KFunc -> o_universe d = false -> special_keep (o_pkg d) (o_name d) = false ->
  beq (o_name d) s_main = false -> beq (o_name d) s_init = false -> beq (o_name d) s_TestMain = false ->
  (is_prefix s_Test (o_name d) && o_test_sig d) = false ->
  (decide intr to_obf d = HashPkg) <-> (to_obf (o_pkg d) && negb (intrinsic intr (o_pkg d) (o_name d)) = true).
Proof.
  intros Hk Hu Hs Hm Hi Ht Hts. unfold decide. rewrite Hu, Hs, Hk.
  destruct (to_obf (o_pkg d)); [|split; discriminate].
  destruct (intrinsic intr (o_pkg d) (o_name d)); [split; discriminate|].
  rewrite andb_false_r, Hm, Hi, Ht. rewrite Hts. split; reflexivity.
Qed.
