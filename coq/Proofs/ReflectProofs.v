(* The run-time name replacer picks what a first-match replacer picks ([PositionProofs] takes over from
   there); the propagation of "reaches reflection" depends on the order of visits (C08). *)
From Coq Require Import Arith Permutation.
From Verif Require Import Base.Bytes Model.Position Model.Reflect.
Open Scope N_scope.

Lemma with_prio_bound pairs : forall n, (length pairs <= n)%nat -> Forall (fun e => (snd e <= n)%nat) (with_prio pairs).
Proof.
  induction pairs as [|[k v] r IH]; intros n Hn; [constructor|]. cbn [with_prio length] in *.
  constructor; [exact Hn | apply IH; lia].
Qed.

(* scanning entries whose priorities are all below the current best changes nothing *)
Lemma best_match_dominated ps s k v p :
  Forall (fun e => (snd e <= p)%nat) ps -> best_match ps s (Some (k, v, p)) = Some (k, v, p).
Proof.
  induction ps as [|[[k' v'] p'] r IH]; intros H; [reflexivity|]. inversion H. cbn [best_match snd] in *.
  assert (Hlt : Nat.ltb p p' = false) by (apply Nat.ltb_ge; lia).
  rewrite Hlt, andb_false_r. apply IH. assumption.
Qed.

(* highest priority = first in argument order *)
Lemma best_match_first pairs s : option_map fst (best_match (with_prio pairs) s None) = first_match pairs s.
Proof.
  induction pairs as [|[k v] r IH]; [reflexivity|]. cbn [with_prio best_match first_match].
  destruct (negb (beq k []) && is_prefix k s) eqn:E; [|exact IH].
  rewrite best_match_dominated; [reflexivity|]. apply with_prio_bound. lia.
Qed.

Theorem prio_replace_is_naive pairs s : prio_replace pairs s = naive_replace pairs s.
Proof.
  unfold prio_replace, naive_replace. generalize (S (length s)) as fuel. intros fuel. revert s.
  induction fuel as [|f IH]; intros s; [reflexivity|]. destruct s as [|c r]; [reflexivity|].
  cbn [prio_replace_fuel naive_replace_fuel]. rewrite <- best_match_first.
  destruct (best_match (with_prio pairs) (c :: r) None) as [[[k v] p]|]; cbn [option_map fst]; f_equal; apply IH.
Qed.

(* the result of the propagation depends on the visiting order (F10) *)
Definition G : fname := 2.
Definition H_ : fname := 3.
Definition MAIN : fname := 4.
Definition T : N := 77.
(* func g(v any){ reflect.TypeOf(v) } ; func h(a, b any){ reflect.TypeOf(a); g(b) } ; main: h(1, T{}) *)
Definition fg := {| f_name := G; f_calls := [{| c_callee := TYPEOF; c_args := [AParam 0] |}] |}.
Definition fh := {| f_name := H_; f_calls := [{| c_callee := TYPEOF; c_args := [AParam 0] |}; {| c_callee := G; c_args := [AParam 1] |}] |}.
Definition fmain := {| f_name := MAIN; f_calls := [{| c_callee := H_; c_args := [AOther; ALocal T] |}] |}.

Theorem analyse_order_refuted :
  exists o1 o2,
    (forall p, In p o1 -> Permutation p [fg; fh; fmain]) /\
    (forall p, In p o2 -> Permutation p [fg; fh; fmain]) /\
    names (analyse o1 init_state) = [T] /\ names (analyse o2 init_state) = [].
Proof.
  (* four passes in each order: from the second pass on neither result changes *)
  exists (repeat [fh; fg; fmain] 4), (repeat [fmain; fh; fg] 4).
  split; [|split; [|split; [vm_compute; reflexivity | vm_compute; reflexivity]]].
  - intros p Hp. apply repeat_spec in Hp. subst. apply perm_swap.
  - intros p Hp. apply repeat_spec in Hp. subst. exact (Permutation_sym (Permutation_rev [fg; fh; fmain])).
Qed.
