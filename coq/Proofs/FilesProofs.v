(* What garble does to a -debugdir target, and which directory its clean-up removes (C19). *)
From Verif Require Import Base.Bytes Model.Files.
Open Scope N_scope.

Theorem refuse_iff_foreign s : debugdir_decide s = ARefuse <-> (s = DForeign \/ s = DNotADirectory).
Proof. destruct s; split; intros H; try discriminate; auto; destruct H; discriminate. Qed.

Theorem removes_only_owned s : removed_by s = true <-> s = DOwned.
Proof. destruct s; split; intros H; try discriminate; auto. Qed.

(* with the inherited variable forgotten (the fixed code) the clean-up removes at most the
   directory this run created, whatever the outcome and whatever was inherited *)
Theorem cleanup_removes_only_own r : forget_inherited r = true ->
  forall d, In d (cleanup_removes r) -> created r = Some d.
Proof.
  intros Hf d. unfold cleanup_removes, env_at_cleanup. rewrite Hf.
  destruct (created r) as [c|]; [intros [->|[]]; reflexivity | intros []].
Qed.

(* ... and a run that created its directory always removes it *)
Theorem cleanup_removes_created r d : created r = Some d -> In d (cleanup_removes r).
Proof. intros H. unfold cleanup_removes, env_at_cleanup. rewrite H. left. reflexivity. Qed.

(* without forgetting it, an early failure removes the inherited directory (the defect that was fixed) *)
Theorem inherited_shared_refuted :
  exists r d, forget_inherited r = false /\ created r = None /\ inherited r = Some d /\ In d (cleanup_removes r).
Proof. exists {| inherited := Some 7; created := None; forget_inherited := false |}, 7. cbn. auto. Qed.
