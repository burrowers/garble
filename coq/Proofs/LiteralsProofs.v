(* Lemmas about Model/Literals.v (C05, C09): every decoder undoes its encoder, for all data, all
   random choices, all lengths.  For swap and seed the theorems are about the loops
   ([run_swap_from]/[enc_swap_data], [run_seed_from]/[enc_seed_from]); the key layer and the atoms that
   [run_swap], [enc_swap] and [run_seed] wrap around them have round trips of their own
   ([layer_roundtrip], [atom_roundtrip]), and no theorem composes the three. *)
From Coq Require Import ZArith.
From Verif Require Import Base.Bytes Base.Facts Model.Literals.
Open Scope N_scope.

Lemma lxor_mod256 a b : (N.lxor a b) mod 256 = N.lxor (a mod 256) (b mod 256).
Proof.
  change 256 with (2 ^ 8). rewrite <- !N.land_ones. apply N.bits_inj. intros k.
  rewrite !N.land_spec, !N.lxor_spec, !N.land_spec.
  destruct (N.testbit a k), (N.testbit b k), (N.testbit (N.ones 8) k); reflexivity.
Qed.

Lemma lxor_lt256 a b : a < 256 -> b < 256 -> N.lxor a b < 256.
Proof.
  intros Ha Hb. rewrite <- (N.mod_small a 256 Ha), <- (N.mod_small b 256 Hb), <- lxor_mod256.
  apply N.mod_lt. discriminate.
Qed.

(* xor is an involution, add and sub undo each other mod 256 *)
Lemma ap_inv o x y : x < 256 -> y < 256 -> ap (inv o) (ap o x y) y = x.
Proof. intros Hx Hy. destruct o; cbn [ap inv]; [apply lxor_cancel | mod_lia | mod_lia]. Qed.
Lemma ap_lt o x y : x < 256 -> y < 256 -> ap o x y < 256.
Proof. intros Hx Hy. destruct o; cbn [ap]; [apply lxor_lt256; assumption | apply N.mod_lt; discriminate ..]. Qed.
Lemma inv_inv o : inv (inv o) = o. Proof. destruct o; reflexivity. Qed.

Lemma upd_length l i v : length (upd l i v) = length l.
Proof. revert i; induction l as [|x l IH]; intros [|i]; cbn; auto. Qed.
Lemma at_upd_same l i v : (i < length l)%nat -> at_ (upd l i v) i = v.
Proof. revert i; induction l as [|x l IH]; intros [|i] H; cbn in *; try lia. apply IH. lia. Qed.
Lemma at_upd_other l i j v : i <> j -> at_ (upd l i v) j = at_ l j.
Proof. revert i j; induction l as [|x l IH]; intros [|i] [|j] H; cbn; try congruence. apply IH. congruence. Qed.
Lemma upd_upd_same l i v w : upd (upd l i v) i w = upd l i w.
Proof. revert i; induction l as [|x l IH]; intros [|i]; cbn; auto. f_equal. apply IH. Qed.
Lemma upd_at l i : upd l i (at_ l i) = l.
Proof. revert i; induction l as [|x l IH]; intros [|i]; cbn; auto. f_equal. apply IH. Qed.
Lemma upd_comm l i j v w : i <> j -> upd (upd l i v) j w = upd (upd l j w) i v.
Proof. revert i j; induction l as [|x l IH]; intros [|i] [|j] H; cbn; try congruence. f_equal. apply IH. congruence. Qed.

Definition okb (d : bytes) : Prop := Forall (fun b => b < 256) d.
Lemma okb_at d i : okb d -> at_ d i < 256.
Proof.
  unfold okb, at_. revert i; induction d as [|x d IH]; intros [|i] H; cbn; try lia; inversion H; auto.
Qed.

Definition step_ok (n : nat) (s : step) : Prop := let '(i, _, k) := s in (i < n)%nat /\ k < 256.
Definition dinv (n : nat) (d : bytes) : Prop := length d = n /\ okb d.
Lemma upd_dinv n d i v : dinv n d -> v < 256 -> dinv n (upd d i v).
Proof.
  intros [Hl Hb] Hv. split; [rewrite upd_length; exact Hl|]. clear Hl.
  revert i; induction Hb as [|x d Hx Hb IH]; intros [|i]; cbn; constructor; auto. apply IH.
Qed.

Lemma do_step_undo n d s : dinv n d -> step_ok n s ->
  dinv n (do_step d s) /\ do_step (do_step d s) (inv_step s) = d.
Proof.
  destruct s as [[i o] k]. intros Hd [Hi Hk]. cbn [do_step inv_step].
  pose proof (okb_at d i (proj2 Hd)) as Ha. split.
  - apply upd_dinv; [exact Hd | apply ap_lt; assumption].
  - rewrite at_upd_same by (rewrite (proj1 Hd); exact Hi). rewrite ap_inv by assumption.
    rewrite upd_upd_same. apply upd_at.
Qed.

Theorem layer_roundtrip ops d :
  okb d -> Forall (step_ok (length d)) ops -> run_layer (enc_layer ops d) = d.
Proof.
  intros Hb Hops. unfold run_layer, enc_layer. cbn [fst snd].
  (* fold_undo has its rev on the encoder's list, the layer on the decoder's: turn the inner ops into rev (rev ops) *)
  rewrite <- map_rev, fold_left_map. rewrite <- (rev_involutive ops) at 2.
  apply (fold_undo do_step (fun s a => do_step s (inv_step a)) (dinv (length d)) (step_ok (length d))).
  - exact (do_step_undo (length d)).
  - apply Forall_rev. exact Hops.
  - split; [reflexivity | exact Hb].
Qed.

Theorem atom_roundtrip v c : v < 256 -> (match c with Some (_, k) => k < 256 | None => True end) ->
  run_atom (enc_atom v c) = v.
Proof. intros Hv Hc. destruct c as [[o k]|]; cbn; [apply ap_inv; assumption | reflexivity]. Qed.

Lemma zipw_undo o d key : okb d -> okb key -> length key = length d ->
  zipw (ap (inv o)) (zipw (ap o) d key) key = d.
Proof.
  revert key; induction d as [|x d IH]; intros [|k key] Hd Hk Hl; cbn in *; try discriminate; [reflexivity|].
  inversion Hd; inversion Hk. rewrite ap_inv by assumption. f_equal. apply IH; auto.
Qed.
Lemma zipw_length f a b : length (zipw f a b) = Nat.min (length a) (length b).
Proof. revert b; induction a as [|x a IH]; intros [|y b]; cbn; auto. Qed.
Lemma zipw_okb o a b : okb a -> okb b -> okb (zipw (ap o) a b).
Proof.
  unfold okb. revert b; induction a as [|x a IH]; intros [|y b] Ha Hb; cbn; try constructor.
  - inversion Ha; inversion Hb. apply ap_lt; assumption.
  - inversion Ha; inversion Hb. apply IH; assumption.
Qed.

Theorem simple_roundtrip key o kops dops d :
  okb d -> okb key -> length key = length d ->
  Forall (step_ok (length key)) kops -> Forall (step_ok (length d)) dops ->
  let '(kl, dl, o') := enc_simple key o kops dops d in run_simple kl dl o' = d.
Proof.
  intros Hd Hk Hl Hko Hdo. unfold enc_simple, run_simple.
  rewrite (layer_roundtrip kops key Hk Hko).
  assert (Hz : okb (zipw (ap o) d key)) by (apply zipw_okb; assumption).
  assert (Hzl : length (zipw (ap o) d key) = length d) by (rewrite zipw_length; lia).
  rewrite (layer_roundtrip dops _ Hz) by (rewrite Hzl; exact Hdo).
  rewrite firstn_all2 by lia. rewrite skipn_all2 by lia. rewrite app_nil_r.
  apply zipw_undo; assumption.
Qed.

Lemma swap_step_undo (f g : N -> N) n d p q :
  (forall x, x < 256 -> g (f x) = x /\ f x < 256) -> dinv n d -> (p < n)%nat -> (q < n)%nat ->
  dinv n (swap_step f d p q) /\ swap_step g (swap_step f d p q) p q = d.
Proof.
  intros Hfg [<- Hd] Hp Hq. unfold swap_step. split.
  - apply upd_dinv; [apply upd_dinv; [exact (conj eq_refl Hd)|] |]; apply Hfg, okb_at, Hd.
  - destruct (Hfg (at_ d q) (okb_at d q Hd)) as [Gq _].
    destruct (Hfg (at_ d p) (okb_at d p Hd)) as [Gp _].
    destruct (Nat.eq_dec p q) as [->|Hne].
    + rewrite !upd_upd_same. rewrite !at_upd_same by lia. rewrite Gq. apply upd_at.
    + rewrite (at_upd_same _ q) by (rewrite upd_length; lia).
      rewrite (at_upd_other _ q p) by congruence. rewrite (at_upd_same _ p) by lia.
      rewrite Gp, Gq.
      (* upd (upd (upd (upd d p a) q b) p d[p]) q d[q] = d *)
      rewrite (upd_comm (upd d p (f (at_ d q))) q p) by congruence.
      rewrite (upd_upd_same d p). rewrite upd_upd_same. rewrite (upd_at d p). apply upd_at.
Qed.

Definition pair_ok (n : nat) (t : nat * nat * nat) : Prop := let '(_, p, q) := t in (p < n)%nat /\ (q < n)%nat.

(* the swap of one position pair, as the emitted loop and the generator both do it *)
Definition swap_pair (o : bop) (shift : N) (d : bytes) (t : nat * nat * nat) : bytes :=
  let '(i, p, q) := t in swap_step (fun x => ap o x (local_key i p q shift)) d p q.

Lemma run_swap_from_fold i pos o shift d :
  run_swap_from i pos o shift d = fold_left (swap_pair o shift) (pairs_from i pos) d.
Proof.
  revert i d. induction pos as [pos IH] using list_length_ind. intros i d.
  destruct pos as [|p [|q r]]; try reflexivity. cbn [run_swap_from pairs_from fold_left]. apply IH. cbn. lia.
Qed.

Lemma local_key_lt i p q s : local_key i p q s < 256.
Proof. unfold local_key. apply N.mod_lt. discriminate. Qed.

Theorem swap_data_roundtrip pos o shift d :
  okb d -> Forall (pair_ok (length d)) (pairs_from 0 pos) ->
  run_swap_from 0 pos (inv o) shift (enc_swap_data pos o shift d) = d.
Proof.
  intros Hd Hp. rewrite run_swap_from_fold. unfold enc_swap_data.
  apply (fold_undo (swap_pair o shift) (swap_pair (inv o) shift) (dinv (length d)) (pair_ok (length d))).
  - intros s [[i p] q] Hs [H1 H2]. apply swap_step_undo; [|exact Hs | exact H1 | exact H2].
    intros x Hx. split; [apply ap_inv | apply ap_lt]; auto using local_key_lt.
  - exact Hp.
  - split; [reflexivity | exact Hd].
Qed.

Theorem seed_roundtrip o d : okb d -> forall s, s < 256 ->
  run_seed_from s (inv o) (enc_seed_from s o d) = d.
Proof.
  intros Hd. induction Hd as [|b d Hb _ IH]; intros s Hs; [reflexivity|].
  cbn [enc_seed_from run_seed_from]. rewrite ap_inv by assumption. f_equal. apply IH.
  apply N.mod_lt. discriminate.
Qed.

Theorem wrap_roundtrip junk s d : (s <= length junk)%nat -> unwrap s (length d) (wrap junk s d) = d.
Proof.
  intros Hs. unfold unwrap, wrap. rewrite skipn_app. rewrite firstn_length, Nat.min_l by exact Hs.
  rewrite skipn_all2 by (rewrite firstn_length; lia). replace (s - s)%nat with 0%nat by lia.
  cbn [app skipn]. rewrite firstn_app, firstn_all, Nat.sub_diag. apply app_nil_r.
Qed.

Theorem array_roundtrip len d : (length d <= len)%nat ->
  length (to_array len d) = len /\ firstn (length d) (to_array len d) = d /\
  skipn (length d) (to_array len d) = repeat 0 (len - length d).
Proof.
  intros H. unfold to_array. repeat split.
  - rewrite app_length, repeat_length. lia.
  - rewrite firstn_app, firstn_all, Nat.sub_diag. apply app_nil_r.
  - rewrite skipn_app, skipn_all, Nat.sub_diag. reflexivity.
Qed.

Lemma place_other acc sigma vals j : ~ In j sigma -> at_ (place acc sigma vals) j = at_ acc j.
Proof.
  revert acc vals; induction sigma as [|k s IH]; intros acc [|v vals] Hn; cbn [place]; auto.
  rewrite IH by (intros H; apply Hn; right; exact H).
  apply at_upd_other. intros ->. apply Hn. left. reflexivity.
Qed.
Lemma place_dinv n acc sigma vals : dinv n acc -> okb vals -> dinv n (place acc sigma vals).
Proof.
  revert acc vals; induction sigma as [|k s IH]; intros acc [|v vals] Ha Hv; auto.
  inversion Hv. apply IH; [apply upd_dinv; assumption | assumption].
Qed.
Lemma place_at acc sigma vals i :
  NoDup sigma -> Forall (fun j => (j < length acc)%nat) sigma -> length sigma = length vals ->
  (i < length sigma)%nat -> at_ (place acc sigma vals) (nth i sigma 0%nat) = nth i vals 0.
Proof.
  revert acc vals i; induction sigma as [|k s IH]; intros acc [|v vals] i Hnd Hlt Hl Hi; cbn [place length nth] in *; try lia.
  inversion Hnd; inversion Hlt. destruct i as [|i].
  - rewrite place_other by assumption. apply at_upd_same. assumption.
  - apply IH; auto; try lia. rewrite upd_length. assumption.
Qed.

Lemma repeat_dinv n : dinv n (repeat 0 n).
Proof. split; [apply repeat_length|]. induction n; cbn; constructor; [lia | assumption]. Qed.

Lemma sh_full_okb ops key d : okb d -> okb key -> okb (sh_full ops key d).
Proof.
  intros Hd Hk. unfold sh_full, okb. apply Forall_app. split; [|exact Hk].
  apply Forall_map, Forall_forall. intros i _. apply ap_lt; apply okb_at; assumption.
Qed.

Lemma sh_full_length ops key d : length (sh_full ops key d) = (length d + length key)%nat.
Proof. unfold sh_full. rewrite app_length, map_seq_length. reflexivity. Qed.
Lemma sh_full_data ops key d i : (i < length d)%nat ->
  nth i (sh_full ops key d) 0 = ap (nth i ops Xor) (at_ d i) (at_ key i).
Proof.
  intros H. unfold sh_full. rewrite app_nth1 by (rewrite map_seq_length; exact H).
  apply (nth_map_seq (fun i => ap (nth i ops Xor) (at_ d i) (at_ key i))), H.
Qed.
Lemma sh_full_key ops key d i : nth (length d + i) (sh_full ops key d) 0 = at_ key i.
Proof. unfold sh_full. rewrite <- (map_seq_length (fun i => ap (nth i ops Xor) (at_ d i) (at_ key i)) (length d)) at 1. apply app_nth2_plus. Qed.

Theorem shuffle_roundtrip ops key idxk sigma kas fops kops d :
  okb d -> okb key -> okb idxk -> length key = length d ->
  NoDup sigma -> length sigma = (2 * length d)%nat -> Forall (fun j => (j < 2 * length d)%nat) sigma ->
  Forall (step_ok (2 * length d)) fops -> Forall (step_ok (length idxk)) kops ->
  let '(fl, kl, args) := enc_shuffle ops key idxk sigma kas fops kops d in run_shuffle fl kl args = d.
Proof.
  intros Hd Hk Hi Hlk Hnd Hls Hlt Hfo Hko. unfold enc_shuffle, run_shuffle.
  assert (Hfl : length (sh_full ops key d) = (2 * length d)%nat) by (rewrite sh_full_length; lia).
  rewrite Hfl. set (full := sh_full ops key d) in *. set (shuffled := place _ sigma full).
  assert (Hs : dinv (2 * length d) shuffled) by (apply place_dinv; [apply repeat_dinv | apply sh_full_okb; assumption]).
  rewrite (layer_roundtrip fops shuffled (proj2 Hs)) by (rewrite (proj1 Hs); exact Hfo).
  rewrite (layer_roundtrip kops idxk Hi Hko).
  assert (Hat : forall j, (j < 2 * length d)%nat -> at_ shuffled (nth j sigma 0%nat) = nth j full 0).
  { intros j Hj. apply place_at; [exact Hnd | rewrite repeat_length; exact Hlt | rewrite Hfl; exact Hls | rewrite Hls; exact Hj]. }
  (* position by position: the argument pair of position i names the shuffled places of data i and key i *)
  unfold sh_args. rewrite map_map. apply (nth_ext _ _ 0 0); rewrite map_seq_length; [reflexivity|]. intros i Hin.
  rewrite (nth_map_seq _ _ i 0 Hin), !lxor_cancel, !Nat2N.id, !Hat by lia.
  unfold full. rewrite sh_full_data, sh_full_key by exact Hin. apply ap_inv; apply okb_at; assumption.
Qed.

Theorem enc_byte_equals_plain_iff_neutral o x k : x < 256 -> k < 256 -> (ap o x k = x <-> k = 0).
Proof.
  intros Hx Hk. destruct o; cbn [ap]; [|mod_lia..].
  rewrite <- (N.lxor_0_r x) at 2. split; [apply lxor_cancel_l | intros ->; reflexivity].
Qed.

Lemma decrypt_encrypt o K d : okb d -> forall y, decrypt_from y (inv o) K (encrypt_from y o (K mod 256) d) = d.
Proof.
  intros Hd. induction Hd as [|b d Hb _ IH]; intros y; [reflexivity|].
  cbn [encrypt_from decrypt_from]. rewrite lxor_mod256.
  rewrite ap_inv by (assumption || (apply lxor_lt256; apply N.mod_lt; discriminate)). f_equal. apply IH.
Qed.

Lemma find_case_in cs k c : NoDup (map fst cs) -> In (k, c) cs -> find_case cs k = Some c.
Proof.
  induction cs as [|[k' c'] r IH]; intros Hnd Hin; [contradiction|]. cbn [find_case].
  inversion Hnd as [|? ? Hnotin Hnd']; subst. destruct Hin as [H|H].
  - injection H as -> ->. rewrite N.eqb_refl. reflexivity.
  - destruct (N.eqb_spec k' k) as [->|Hne]; [|apply IH; assumption].
    exfalso. apply Hnotin. apply in_map_iff. exists (k, c). split; [reflexivity | exact H].
Qed.

Lemma split_key_from_snoc idx : forall c K ix,
  split_key_from c (idx ++ [ix]) K = N.lxor (split_key_from c idx K) ((ix * N.of_nat (c + length idx)) mod 256).
Proof.
  induction idx as [|i r IH]; intros c K ix; cbn [app length split_key_from]; [rewrite Nat.add_0_r; reflexivity|].
  rewrite IH, <- Nat.add_succ_comm. reflexivity.
Qed.

Lemma split_key_from_lt idx : forall c K, K < 256 -> split_key_from c idx K < 256.
Proof.
  induction idx as [|ix r IH]; intros c K HK; [exact HK|]. apply IH.
  apply lxor_lt256; [exact HK | apply N.mod_lt; discriminate].
Qed.

Section Split.
  Variable n : nat.                      (* number of chunks *)
  Variable idx : list N.                 (* the permutation: n + 2 state numbers *)
  Variable ps : list piece.              (* the emitted chunk expressions, in original order *)
  Variable o : bop.
  Variable key0 : N.
  Variable cs : list (N * scase).        (* the switch cases, in any (shuffled) order *)
  Variable data : bytes.
  Hypothesis Hidx : length idx = S (S n).
  Hypothesis Hnd : NoDup idx.
  Hypothesis Hps : length ps = n.
  Hypothesis Hkey0 : key0 < 256.
  Hypothesis Hdata : okb data.
  Hypothesis Hcs_len : length cs = S n.
  Hypothesis Hcs_nd : NoDup (map fst cs).
  Hypothesis Hchunk : forall k, (k < n)%nat -> In (nth k idx 0, CChunk (nth (S k) idx 0) (nth k ps (PAtom (0, None)))) cs.
  Hypothesis Hdec : In (nth n idx 0, CDecrypt (nth (S n) idx 0) (inv o)) cs.
  (* the chunks hold the data encrypted with the generator's final key *)
  Hypothesis Henc : concat (map run_piece ps) = encrypt_from 0 o (split_key_from 0 (firstn (S n) idx) key0) data.

  Let exit := nth (S n) idx 0.

  (* one turn of the loop in the k-th state: it is not the exit (the permutation has no repeats), and its
     case is the one the hypotheses name *)
  Lemma loop_turn k sc fuel c K d : (k <= n)%nat -> In (nth k idx 0, sc) cs ->
    run_split_loop (S fuel) cs exit (nth k idx 0) c K d =
    let K' := N.lxor K (nth k idx 0 * c) in
    match sc with
    | CChunk next p => run_split_loop fuel cs exit next (c + 1) K' (d ++ run_piece p)
    | CDecrypt next o' => run_split_loop fuel cs exit next (c + 1) K' (decrypt_from 0 o' K' d)
    end.
  Proof.
    clear - Hidx Hnd Hcs_nd.   (* or [lia] puts every hypothesis of the section into the statement *)
    intros Hk Hin. cbn [run_split_loop]. rewrite (find_case_in cs _ _ Hcs_nd Hin).
    destruct (N.eqb_spec (nth k idx 0) exit) as [E|_]; [|reflexivity].
    apply (NoDup_nth idx 0) in E; [lia | exact Hnd | lia | lia].
  Qed.

  (* the emitted loop keeps its key in an int, the generator in a byte: they agree mod 256 *)
  Let key_ok (c : nat) (K : N) : Prop := K mod 256 = split_key_from 0 (firstn c idx) key0.

  Lemma key_step c K : (c <= n)%nat -> key_ok c K -> key_ok (S c) (N.lxor K (nth c idx 0 * N.of_nat c)).
  Proof.
    clear - Hidx.
    intros Hc HK. unfold key_ok. rewrite (firstn_S_nth idx 0 c), split_key_from_snoc, firstn_length_le by lia.
    rewrite lxor_mod256, HK. reflexivity.
  Qed.

  (* the loop, started at the c-th state with the first c chunks appended, m chunks to go *)
  Lemma split_loop_from : forall m c fuel K, (c + m = n)%nat -> key_ok c K ->
    run_split_loop (S (S (m + fuel))) cs exit (nth c idx 0) (N.of_nat c) K (concat (map run_piece (firstn c ps))) = Some data.
  Proof.
    clear Hcs_len Hkey0.
    induction m as [|m IH]; intros c fuel K Hc HK.
    - (* c = n: the decrypt case, then exit *)
      replace c with n in * by lia.
      rewrite (loop_turn n _ _ _ _ _ (le_n n) Hdec). cbn [run_split_loop]. fold exit. rewrite N.eqb_refl.
      rewrite firstn_all2, Henc, <- (key_step n K (le_n n) HK) by lia. f_equal. apply decrypt_encrypt, Hdata.
    - (* a chunk case *)
      rewrite (loop_turn c _ _ _ _ _ ltac:(lia) (Hchunk c ltac:(lia))). cbn zeta.
      specialize (IH (S c) fuel _ ltac:(lia) (key_step c K ltac:(lia) HK)).
      rewrite (firstn_S_nth ps (PAtom (0, None)) c), map_app, concat_app, Nat2N.inj_succ, <- N.add_1_r in IH by lia.
      cbn [map concat] in IH. rewrite app_nil_r in IH. exact IH.
  Qed.

  Theorem split_roundtrip : run_split (nth 0 idx 0) exit (key0, None) cs = Some data.
  Proof.
    (* the fuel S (S (S n)) of run_split as S (S (n + 1)): n chunks to go and one turn to spare *)
    unfold run_split. rewrite Hcs_len, <- (Nat.add_1_r n).
    apply (split_loop_from n 0 1 key0); [reflexivity | apply N.mod_small, Hkey0].
  Qed.
End Split.
