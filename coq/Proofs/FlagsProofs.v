(* Lemmas about Model/Flags.v (C20).  The go command's parse of an accepted command line is a list of
   well-formed tokens; under [tables_agree] garble's own test of a flag argument ([flag_complete])
   classifies each token as the go command did, so each of garble's loops is described by what it
   does on the strings of one token, and the theorems are inductions over the token list. *)
From Verif Require Import Base.Bytes Base.Facts Model.Flags.
Open Scope N_scope.

Lemma mem_In x l : mem x l = true <-> In x l.
Proof. apply (existsb_eqb_iff beq beq_eq). Qed.

(* splitting is a partition of argv, in order *)
Theorem split_concat bools argv :
  fst (split_flags bools argv) ++ snd (split_flags bools argv) = argv.
Proof.
  induction argv as [argv IH] using list_length_ind.
  destruct argv as [|arg rest]; [reflexivity|]. cbn [split_flags].
  destruct (negb (starts_dash arg)); [reflexivity|].
  destruct (mem (norm_dd arg) bools || has_eq arg).
  - specialize (IH rest ltac:(cbn; lia)).
    destruct (split_flags bools rest) as [f a]. cbn in *. f_equal. exact IH.
  - destruct rest as [|v rest']; [reflexivity|]. specialize (IH rest' ltac:(cbn; lia)).
    destruct (split_flags bools rest') as [f a]. cbn in *. do 2 f_equal. exact IH.
Qed.

(* the user's arguments reach the go command unchanged and in order *)
Theorem go_args_passthrough gbf bools command toolexec extra argv :
  go_args gbf bools command toolexec extra argv =
  ([command] ++ gbf ++ [toolexec] ++ extra ++ (if beq command s_cmd_test then [s_vet_off] else [])) ++ argv.
Proof.
  unfold go_args. pose proof (split_concat bools argv) as H.
  destruct (split_flags bools argv) as [f a]. cbn [fst snd] in H.
  rewrite <- H. rewrite <- !app_assoc. reflexivity.
Qed.

Lemma cut_eq_spec a n v :
  cut_eq a = (n, v) <-> has_eq n = false /\ a = n ++ match v with Some t => EQ :: t | None => [] end.
Proof.
  split.
  - revert n v. induction a as [|c r IH]; cbn [cut_eq]; intros n v H.
    + injection H as <- <-. auto.
    + destruct (c =? EQ) eqn:E.
      * injection H as <- <-. apply N.eqb_eq in E. subst c. auto.
      * destruct (cut_eq r) as [n' v']. injection H as <- <-. destruct (IH n' v' eq_refl) as [Hn Hr].
        split; [unfold has_eq; cbn [existsb]; rewrite N.eqb_sym, E; exact Hn | cbn [app]; rewrite <- Hr; reflexivity].
  - intros [Hn ->]. induction n as [|c n IH]; cbn [app cut_eq].
    + destruct v as [t|]; cbn [cut_eq]; [rewrite N.eqb_refl|]; reflexivity.
    + apply orb_false_iff in Hn as [H1 H2]. rewrite N.eqb_sym, H1, (IH H2). reflexivity.
Qed.

Lemma has_eq_norm_dd a : has_eq (norm_dd a) = has_eq a.
Proof.
  destruct a as [|c [|c2 r]]; try reflexivity. cbn [norm_dd].
  destruct (c =? DASH) eqn:E; [|reflexivity]. apply N.eqb_eq in E. subst c.
  destruct (c2 =? DASH); reflexivity.
Qed.

Lemma strip_prefix_some p s t : strip_prefix p s = Some t -> s = p ++ t.
Proof.
  revert s; induction p as [|x p IH]; intros s H; cbn in H; [injection H as ->; reflexivity|].
  destruct s as [|y s]; [discriminate|]. destruct (x =? y) eqn:E; [|discriminate].
  apply N.eqb_eq in E. subst y. cbn. f_equal. apply IH, H.
Qed.

Lemma strip_prefix_app n t : strip_prefix n (n ++ t) = Some t.
Proof. induction n as [|c n IH]; cbn; [reflexivity|]. rewrite N.eqb_refl. exact IH. Qed.

Lemma strip_prefix_self p c v : strip_prefix (p ++ [c]) (p ++ c :: v) = Some v.
Proof. change (p ++ c :: v) with (p ++ [c] ++ v). rewrite app_assoc. apply strip_prefix_app. Qed.

Lemma strip_prefix_longer p c t : strip_prefix (p ++ c :: t) p = None.
Proof. induction p as [|x p IH]; cbn [app strip_prefix]; [reflexivity|]. rewrite N.eqb_refl. exact IH. Qed.

Lemma garble_name_plain n : In n garble_flag_names -> has_eq n = false /\ starts_dash n = false.
Proof. revert n. apply Forall_forall. repeat constructor. Qed.

Lemma name_then_name body :
  name_then_end_or_eq body = true -> mem (fst (cut_eq body)) garble_flag_names = true.
Proof.
  unfold name_then_end_or_eq, mem. rewrite !existsb_exists. intros (n & Hin & Hn).
  exists n. split; [exact Hin|]. destruct (garble_name_plain n Hin) as [Hne _].
  destruct (strip_prefix n body) as [t|] eqn:Hs; [|discriminate]. apply strip_prefix_some in Hs. subst body.
  assert (Hc : exists v, cut_eq (n ++ t) = (n, v)).
  { destruct t as [|c t]; [exists None | exists (Some t); apply N.eqb_eq in Hn; subst c];
    apply cut_eq_spec; auto. }
  destruct Hc as [v ->]. apply beq_refl.
Qed.

Lemma name_then_dash r : name_then_end_or_eq (DASH :: r) = false.
Proof.
  unfold name_then_end_or_eq. apply not_true_is_false. intros H. apply existsb_exists in H as (n & Hin & Hn).
  destruct (garble_name_plain n Hin) as [_ Hnd]. destruct n as [|c n]; cbn in Hn, Hnd; [discriminate|].
  rewrite Hnd in Hn. discriminate.
Qed.

(* every spelling of every garble flag is rejected without a value ... *)
Definition garble_spellings_rejected : bool :=
  forallb (fun n => rx_garble (DASH :: n) && rx_garble (DASH :: DASH :: n)) garble_flag_names.
Lemma garble_spellings_rejected_true : garble_spellings_rejected = true.
Proof. vm_compute. reflexivity. Qed.

(* ... and with any value *)
Theorem garble_flag_rejected n v dd :
  In n garble_flag_names ->
  rx_garble ((if dd : bool then [DASH; DASH] else [DASH]) ++ n ++ EQ :: v) = true.
Proof.
  intros Hin.
  assert (Hn : name_then_end_or_eq (n ++ EQ :: v) = true).
  { unfold name_then_end_or_eq. apply existsb_exists. exists n. split; [exact Hin|].
    rewrite strip_prefix_app. apply N.eqb_refl. }
  destruct dd; cbn [app rx_garble]; rewrite ?N.eqb_refl; cbn [andb].
  - rewrite Hn. rewrite orb_true_r. reflexivity.
  - rewrite Hn. reflexivity.
Qed.

Lemma not_flag_no_dash s : flag_body s = None -> starts_dash s = false.
Proof.
  unfold flag_body, starts_dash. destruct s as [|c r]; [reflexivity|].
  destruct (c =? DASH); [|reflexivity]. destruct r as [|c2 r2]; [discriminate|].
  destruct (c2 =? DASH); discriminate.
Qed.

(* what garble's three tests see of a flag token: a leading dash, the body behind one dash once
   normalised, and a regexp that decides on the body *)
Lemma flag_token_facts s body :
  flag_body s = Some body ->
  starts_dash s = true /\ norm_dd s = DASH :: body /\ rx_garble s = name_then_end_or_eq body.
Proof.
  unfold flag_body. intros Hb.
  destruct s as [|c r]; [discriminate|].
  destruct (c =? DASH) eqn:Ec; [|discriminate]. apply N.eqb_eq in Ec. subst c.
  cbn [starts_dash rx_garble]. rewrite N.eqb_refl. cbn [andb].
  destruct r as [|c2 r2]; [injection Hb as <-; rewrite orb_false_r; auto|].   (* a lone "-" *)
  cbn [norm_dd]. rewrite N.eqb_refl. cbn [andb].
  destruct (c2 =? DASH) eqn:Ec2; injection Hb as <-; cbn [andb].
  - apply N.eqb_eq in Ec2. subst c2. rewrite name_then_dash. auto.
  - rewrite orb_false_r. auto.
Qed.

Lemma lookup_def_In n defs b : lookup_def n defs = Some b -> In (n, b) defs.
Proof.
  induction defs as [|[k v] defs IH]; cbn [lookup_def]; [discriminate|]. destruct (beq n k) eqn:E.
  - apply beq_eq in E. intros [= ->]. left. congruence.
  - right. auto.
Qed.

Definition tok_wf (defs : list (str * bool)) (t : tok) : Prop :=
  exists body isb,
    flag_body (t_raw t) = Some body /\
    cut_eq body = (t_name t, t_inline t) /\ lookup_def (t_name t) defs = Some isb /\
    (* a boolean flag, or one written -f=v, stands alone; any other takes the next argument *)
    isb || match t_inline t with Some _ => true | None => false end
    = match t_next t with Some _ => false | None => true end.

Lemma go_parse_tokens defs : forall argv ts a,
  go_parse defs argv = Some (ts, a) ->
  Forall (tok_wf defs) ts /\ argv = flat_map tok_strs ts ++ a /\
  match a with s :: _ => flag_body s = None | [] => True end.
Proof.
  induction argv as [argv IH] using list_length_ind. intros ts a Hg.
  destruct argv as [|s rest]; [injection Hg as <- <-; auto|]. cbn [go_parse] in Hg.
  destruct (flag_body s) as [body|] eqn:Hfb; [|injection Hg as <- <-; auto].
  destruct (bad_body body); [discriminate|].
  destruct (cut_eq body) as [name inline] eqn:Hcut.
  destruct (lookup_def name defs) as [isb|] eqn:Hlk; [|discriminate].
  destruct (isb || _) eqn:Hb.
  - destruct (go_parse defs rest) as [[ts' a']|] eqn:Hr; [|discriminate]. injection Hg as <- <-.
    destruct (IH rest ltac:(cbn; lia) ts' a' Hr) as (Hwf & -> & Ha).
    repeat split; [|exact Ha]. constructor; [|exact Hwf]. exists body, isb. cbn. auto.
  - destruct rest as [|v rest']; [discriminate|].
    destruct (go_parse defs rest') as [[ts' a']|] eqn:Hr; [|discriminate]. injection Hg as <- <-.
    destruct (IH rest' ltac:(cbn; lia) ts' a' Hr) as (Hwf & -> & Ha).
    repeat split; [|exact Ha]. constructor; [|exact Hwf]. exists body, isb. cbn.
    destruct inline; [rewrite orb_true_r in Hb; discriminate|]. auto.
Qed.

Lemma go_parse_wf defs argv ts a : go_parse defs argv = Some (ts, a) -> Forall (tok_wf defs) ts.
Proof. intros H. apply (go_parse_tokens defs argv ts a H). Qed.

(* a well-formed go flag token whose name is not one of garble's is never rejected *)
Theorem no_false_reject defs t :
  tok_wf defs t -> mem (t_name t) garble_flag_names = false -> rx_garble (t_raw t) = false.
Proof.
  intros (body & isb & Hfb & Hcut & _ & _) Hnm.
  destruct (flag_token_facts _ _ Hfb) as (_ & _ & ->).
  apply not_true_is_false. intros H. apply name_then_name in H. rewrite Hcut in H. cbn [fst] in H. congruence.
Qed.

Lemma no_token_rejected defs ts :
  forallb (fun d => negb (mem (fst d) garble_flag_names)) defs = true ->
  Forall (tok_wf defs) ts -> existsb (fun t => rx_garble (t_raw t)) ts = false.
Proof.
  rewrite forallb_forall. intros Hdis H. induction H as [|t ts Ht _ IH]; [reflexivity|].
  cbn [existsb]. rewrite IH, orb_false_r. apply (no_false_reject defs t Ht).
  destruct Ht as (body & isb & _ & _ & Hlk & _). apply negb_true_iff, (Hdis _ (lookup_def_In _ _ _ Hlk)).
Qed.

(* what is forwarded to `go list` *)
Definition fwd_tok (fwd : list (str * bool)) (t : tok) : list str :=
  if assoc (DASH :: t_name t) fwd
  then norm_dd (t_raw t) :: match t_next t with Some v => [v] | None => [] end
  else [].

Section Tokens.
  Variables (bools : list str) (defs : list (str * bool)).
  Hypothesis Hta : tables_agree bools defs = true.

  Lemma tables_agree_lookup name b : lookup_def name defs = Some b -> mem (DASH :: name) bools = b.
  Proof.
    intros Hlk. apply Bool.eqb_prop.
    exact (proj1 (forallb_forall _ _) Hta _ (lookup_def_In _ _ _ Hlk)).
  Qed.

  (* the token in garble's terms: garble takes the next argument as the value exactly when the go
     command did *)
  Lemma tok_wf_normal t :
    tok_wf defs t ->
    starts_dash (t_raw t) = true /\
    fst (cut_eq (norm_dd (t_raw t))) = DASH :: t_name t /\
    flag_complete bools (t_raw t) = match t_next t with Some _ => false | None => true end.
  Proof.
    intros (body & isb & Hfb & Hcut & Hlk & Hnext).
    destruct (flag_token_facts _ _ Hfb) as (Hsd & Hnd & _).
    apply cut_eq_spec in Hcut as [Hne Hbody].
    split; [exact Hsd|]. split.
    - rewrite Hnd, (proj2 (cut_eq_spec (DASH :: body) (DASH :: t_name t) (t_inline t))); [reflexivity|].
      split; [exact Hne | rewrite Hbody; reflexivity].
    - rewrite <- Hnext. unfold flag_complete. rewrite <- has_eq_norm_dd, Hnd. change (has_eq (DASH :: body)) with (has_eq body).   (* DASH is not EQ *)
      rewrite Hbody. destruct (t_inline t) as [v|].
      + unfold has_eq. rewrite existsb_app. cbn [existsb]. rewrite N.eqb_refl, !orb_true_r. reflexivity.
      + rewrite app_nil_r, Hne, (tables_agree_lookup _ isb Hlk). reflexivity.
  Qed.

  Lemma split_flags_tok t rest :
    tok_wf defs t ->
    split_flags bools (tok_strs t ++ rest)
    = (tok_strs t ++ fst (split_flags bools rest), snd (split_flags bools rest)).
  Proof.
    intros Ht. unfold tok_strs.
    destruct (tok_wf_normal t Ht) as (Hsd & _ & Hc). unfold flag_complete in Hc.
    destruct (t_next t) as [v|]; cbn [app split_flags]; rewrite Hsd, Hc; destruct (split_flags bools rest); reflexivity.
  Qed.

  Lemma filter_forward_tok fwd t rest :
    tok_wf defs t ->
    filter_forward fwd bools (tok_strs t ++ rest)
    = (fwd_tok fwd t ++ fst (filter_forward fwd bools rest),
       pick_unknown (assoc (DASH :: t_name t) fwd) (DASH :: t_name t) (snd (filter_forward fwd bools rest))).
  Proof.
    intros Ht. unfold tok_strs, fwd_tok.
    destruct (tok_wf_normal t Ht) as (_ & Hname & Hc). unfold flag_complete in Hc.
    destruct (t_next t) as [v|]; cbn [app filter_forward]; rewrite Hname, has_eq_norm_dd, Hc;
      destruct (filter_forward fwd bools rest); reflexivity.
  Qed.

  Lemma garble_flag_in_flags_tok t rest :
    tok_wf defs t ->
    garble_flag_in_flags bools (tok_strs t ++ rest) = rx_garble (t_raw t) || garble_flag_in_flags bools rest.
  Proof.
    intros Ht. unfold tok_strs.
    destruct (tok_wf_normal t Ht) as (_ & _ & Hc).
    destruct (t_next t) as [v|]; cbn [app garble_flag_in_flags]; rewrite Hc; reflexivity.
  Qed.

  Theorem split_flags_parsed argv ts a :
    go_parse defs argv = Some (ts, a) -> split_flags bools argv = (flat_map tok_strs ts, a).
  Proof.
    intros H. destruct (go_parse_tokens defs argv ts a H) as (Hwf & -> & Ha). clear H.
    induction Hwf as [|t ts Ht _ IH]; cbn [flat_map app].
    - destruct a as [|s a']; [reflexivity|]. cbn [split_flags]. rewrite (not_flag_no_dash s Ha). reflexivity.
    - rewrite <- app_assoc, (split_flags_tok t _ Ht), IH. reflexivity.
  Qed.

  Theorem split_matches_go argv f a :
    go_split defs argv = Some (f, a) -> split_flags bools argv = (f, a).
  Proof.
    unfold go_split. destruct (go_parse defs argv) as [[ts a']|] eqn:Hp; [|discriminate].
    intros [= <- <-]. exact (split_flags_parsed argv ts a' Hp).
  Qed.

  Lemma filter_forward_spec fwd ts :
    Forall (tok_wf defs) ts ->
    fst (filter_forward fwd bools (flat_map tok_strs ts)) = flat_map (fwd_tok fwd) ts.
  Proof.
    intros H. induction H as [|t ts Ht _ IH]; [reflexivity|].
    cbn [flat_map]. rewrite (filter_forward_tok fwd t _ Ht). cbn [fst]. rewrite IH. reflexivity.
  Qed.

  (* a flag that is not forwarded makes firstUnknown non-empty (reverse/map reject it) *)
  Lemma filter_unknown_spec fwd ts :
    Forall (tok_wf defs) ts ->
    Exists (fun t => assoc (DASH :: t_name t) fwd = false) ts ->
    snd (filter_forward fwd bools (flat_map tok_strs ts)) <> [].
  Proof.
    intros H Hex. induction H as [|t ts Ht _ IH]; [inversion Hex|].
    cbn [flat_map]. rewrite (filter_forward_tok fwd t _ Ht). cbn [snd]. unfold pick_unknown.
    inversion Hex as [? ? H0|? ? H0].
    - rewrite H0. destruct (snd _); discriminate.
    - specialize (IH H0). destruct (snd _); [congruence | discriminate].
  Qed.

  (* on the token list of an accepted command line, the rejection loop looks at flag tokens only *)
  Lemma garble_flag_in_flags_tokens ts :
    Forall (tok_wf defs) ts ->
    garble_flag_in_flags bools (flat_map tok_strs ts) = existsb (fun t => rx_garble (t_raw t)) ts.
  Proof.
    intros H. induction H as [|t ts Ht _ IH]; [reflexivity|].
    cbn [flat_map existsb]. rewrite (garble_flag_in_flags_tok t _ Ht), IH. reflexivity.
  Qed.
End Tokens.
