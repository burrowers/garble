(* What is emitted in sorted order does not depend on the order of iteration (C03). *)
From Coq Require Import Permutation.
From Verif Require Import Base.Bytes Model.Determinism.
Open Scope N_scope.

Lemma ins_comm a b l : ins a (ins b l) = ins b (ins a l).
Proof.
  assert (Hab : forall t, (if a <=? b then a :: b :: t else b :: a :: t) = (if b <=? a then b :: a :: t else a :: b :: t)).
  { intros t. destruct (a <=? b) eqn:E1, (b <=? a) eqn:E2; try reflexivity; [|lia]. replace b with a by lia. reflexivity. }
  induction l as [|y r IH]; cbn [ins]; [apply Hab|].
  (* where a and b go relative to the head y *)
  destruct (a <=? y) eqn:Ha, (b <=? y) eqn:Hb; cbn [ins]; rewrite ?Ha, ?Hb.
  - apply Hab.
  - destruct (b <=? a) eqn:E; [lia | reflexivity].
  - destruct (a <=? b) eqn:E; [lia | reflexivity].
  - f_equal. exact IH.
Qed.

(* the emission does not depend on the order in which the map was iterated *)
Theorem isort_perm l l' : Permutation l l' -> isort l = isort l'.
Proof.
  intros H. induction H as [|x l l' _ IH|x y l|l1 l2 l3 _ IH1 _ IH2]; cbn.
  - reflexivity.
  - rewrite IH. reflexivity.
  - apply ins_comm.
  - congruence.
Qed.

Theorem emit_sorted_perm m m' : Permutation m m' -> emit_sorted m = emit_sorted m'.
Proof. intros H. unfold emit_sorted. apply isort_perm. apply Permutation_map, H. Qed.
