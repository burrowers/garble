(* Each control-flow pass preserves and reflects every run of the function (C11).

   One simulation argument ([gensim_equiv]) carries every pass but the shuffle.  Junk jumps, trash blocks and
   flattening share more than that: each leaves every old block in place, at most appends
   assignments to fresh variables to it, and re-routes its out-edges through new blocks that
   arrive at the old target having changed fresh variables only ([reroute_sim]).  Splitting turns
   one block into two and has its own short simulation; the shuffle is a renumbering.
   After the passes: the boolean side conditions ([pass_okb]) are sound for the hypotheses of the
   pass theorems, and the dispatcher-key hardening ([xor_store], [delegate_store]) keeps keys usable. *)
From Coq Require Import Arith.
From Verif Require Import Base.Bytes Base.Facts Model.Passes.
Open Scope nat_scope.

Lemma modify_length g i f : length (modify g i f) = length g.
Proof. revert i; induction g as [|b r IH]; intros [|i]; cbn; auto. Qed.
Lemma modify_nth g : forall i j f, nth_error (modify g i f) j = option_map (fun b => if j =? i then f b else b) (nth_error g j).
Proof.
  induction g as [|b r IH]; intros [|i] [|j] f; cbn; try reflexivity; [|apply IH].
  destruct (nth_error r j); reflexivity.
Qed.

(* the graph after a pass that rewrites block i and appends new blocks *)
Lemma modify_app_old g i f new pc b : nth_error g pc = Some b ->
  nth_error (modify g i f ++ new) pc = Some (if pc =? i then f b else b).
Proof.
  intros H. rewrite nth_error_app1 by (rewrite modify_length; apply nth_error_Some; congruence).
  rewrite modify_nth, H. reflexivity.
Qed.
Lemma modify_app_new g i f b' new : nth_error (modify g i f ++ b' :: new) (length g) = Some b'.
Proof. rewrite <- (Nat.add_0_r (length g)). apply (nth_error_app_at _ (b' :: new) _ 0), modify_length. Qed.

(* slot i, which pointed to [old], now points to [f i old] *)
Definition retarget (f : nat -> nat -> nat) (t : term) : term :=
  match t with
  | TJump a => TJump (f 0 a)
  | TIf c a b => TIf c (f 0 a) (f 1 b)
  | other => other
  end.

Lemma retarget_id t : retarget (fun _ old => old) t = t.
Proof. destruct t; reflexivity. Qed.
Lemma set_succ_retarget t slot n : set_succ t slot n = retarget (fun i o => if i =? slot then n else o) t.
Proof. destruct t, slot as [|[|slot]]; reflexivity. Qed.
Lemma rewrite_term_retarget n off t : rewrite_term n off t = retarget (fun i _ => n + (off + i)) t.
Proof. destruct t; cbn; rewrite ?Nat.add_0_r, ?Nat.add_1_r; reflexivity. Qed.

Definition agree (X : nat -> Prop) (e e' : env) : Prop := forall y, ~ X y -> e y = e' y.
Lemma agree_refl X e : agree X e e.
Proof. intros y _. reflexivity. Qed.
Lemma agree_trans X e1 e2 e3 : agree X e1 e2 -> agree X e2 e3 -> agree X e1 e3.
Proof. intros H1 H2 y Hy. rewrite (H1 y Hy). apply H2, Hy. Qed.
Lemma agree_upd (X : nat -> Prop) e x k : X x -> agree X e (upd e x k).
Proof. intros Hx y Hy. unfold upd. destruct (Nat.eqb_spec y x); [subst; contradiction | reflexivity]. Qed.

(* the half of [unused] the proofs need: a body that assigns x does so in both graphs alike *)
Lemma unused_cond x g pc b : unused x g = true -> nth_error g pc = Some b -> cond_uses x (bterm b) = false.
Proof.
  intros Hu Hb. unfold unused in Hu. pose proof (proj1 (forallb_forall _ _) Hu b (nth_error_In _ _ Hb)) as H.
  apply andb_true_iff in H as [_ H]. apply negb_true_iff, H.
Qed.

Lemma wf_succ g pc b t : wf g = true -> nth_error g pc = Some b -> In t (succs (bterm b)) -> t < length g.
Proof.
  intros Hwf Hb Ht. unfold wf in Hwf. pose proof (proj1 (forallb_forall _ _) Hwf b (nth_error_In _ _ Hb)) as H.
  apply Nat.ltb_lt. apply (proj1 (forallb_forall _ _) H t Ht).
Qed.

Lemma rewrite_blocks_length n off g : length (rewrite_blocks n off g) = length g.
Proof. revert off; induction g as [|b r IH]; intros off; cbn; auto. Qed.
Lemma all_edges_app a b : all_edges (a ++ b) = all_edges a ++ all_edges b.
Proof. unfold all_edges. apply flat_map_app. Qed.

Lemma rewrite_blocks_nth n g : forall off j b, nth_error g j = Some b ->
  nth_error (rewrite_blocks n off g) j =
  Some {| body := body b; bterm := rewrite_term n (off + edge_offset g j) (bterm b) |}.
Proof.
  induction g as [|b0 r IH]; intros off j b H; [destruct j; discriminate|].
  destruct j as [|j]; cbn in H.
  - injection H as ->. cbn. rewrite Nat.add_0_r. reflexivity.
  - cbn [rewrite_blocks nth_error]. rewrite (IH _ _ _ H). unfold edge_offset. cbn [firstn].
    change (all_edges (b0 :: firstn j r)) with (edges_of b0 ++ all_edges (firstn j r)). rewrite app_length. do 3 f_equal. lia.
Qed.

(* the edges of block j sit in the edge list from position [edge_offset g j] on *)
Lemma edge_at g j b slot old : nth_error g j = Some b -> nth_error (succs (bterm b)) slot = Some old ->
  edge_offset g j + slot < length (all_edges g) /\ nth (edge_offset g j + slot) (all_edges g) 0 = old.
Proof.
  intros H Hs. apply nth_error_split in H as (l1 & l2 & -> & <-).
  assert (Hlt : slot < length (succs (bterm b))) by (apply nth_error_Some; congruence).
  unfold edge_offset. rewrite firstn_app, firstn_all, Nat.sub_diag. rewrite app_nil_r.
  rewrite all_edges_app. change (all_edges (b :: l2)) with (succs (bterm b) ++ all_edges l2).
  rewrite !app_length, app_nth2_plus, app_nth1 by exact Hlt. split; [lia | apply nth_error_nth, Hs].
Qed.

Lemma index_of_nth sigma : NoDup sigma -> forall i, i < length sigma -> index_of (nth i sigma 0) sigma = i.
Proof.
  induction sigma as [|x r IH]; intros Hnd i Hi; [cbn in Hi; lia|].
  inversion Hnd as [|? ? Hx Hr]. destruct i as [|i]; cbn [nth index_of].
  - rewrite Nat.eqb_refl. reflexivity.
  - destruct (Nat.eqb_spec x (nth i r 0)) as [Heq|_].
    + exfalso. apply Hx. rewrite Heq. apply nth_In. cbn in Hi. lia.
    + f_equal. apply IH; [exact Hr | cbn in Hi; lia].
Qed.

Lemma nodup_nat_NoDup l : nodup_nat l = true -> NoDup l.
Proof. exact (nodup_by_NoDup Nat.eqb Nat.eqb_eq l). Qed.

(* the boolean equalities and duplicate tests of [pass_okb] and of the correspondence check decide what they say *)
Lemma cmp6_eqb_eq a b : cmp6_eqb a b = true -> a = b.
Proof. destruct a, b; cbn; intros H; try discriminate; reflexivity. Qed.
Lemma instr_eqb_eq a b : instr_eqb a b = true -> a = b.
Proof.
  destruct a, b; cbn; intros H; try discriminate.
  - f_equal. apply Nat.eqb_eq, H.
  - apply andb_true_iff in H as [H1 H2]. apply Nat.eqb_eq in H1. apply N.eqb_eq in H2. congruence.
Qed.
Lemma condx_eqb_eq a b : condx_eqb a b = true -> a = b.
Proof.
  destruct a, b; cbn; intros H; try discriminate.
  - f_equal. apply Nat.eqb_eq, H.
  - apply andb_true_iff in H as [H H3]. apply andb_true_iff in H as [H1 H2].
    apply Nat.eqb_eq in H1. apply cmp6_eqb_eq in H2. apply N.eqb_eq in H3. congruence.
Qed.
Lemma term_eqb_eq a b : term_eqb a b = true -> a = b.
Proof.
  destruct a, b; cbn; intros H; try discriminate; try (f_equal; apply Nat.eqb_eq, H).
  apply andb_true_iff in H as [H H3]. apply andb_true_iff in H as [H1 H2].
  apply condx_eqb_eq in H1. apply Nat.eqb_eq in H2, H3. congruence.
Qed.
Lemma list_eqb_eq {A} (eqb : A -> A -> bool) : (forall a b, eqb a b = true -> a = b) -> forall a b, list_eqb eqb a b = true -> a = b.
Proof.
  intros He. induction a as [|x a IH]; intros [|y b] H; cbn in H; try discriminate; [reflexivity|].
  apply andb_true_iff in H as [H1 H2]. f_equal; [apply He, H1 | apply IH, H2].
Qed.
Lemma block_eqb_eq a b : block_eqb a b = true -> a = b.
Proof.
  unfold block_eqb. intros H. apply andb_true_iff in H as [H1 H2].
  apply (list_eqb_eq instr_eqb instr_eqb_eq) in H1. apply term_eqb_eq in H2. destruct a, b; cbn in *; congruence.
Qed.
Lemma cfg_eqb_eq a b : cfg_eqb a b = true -> a = b.
Proof. apply (list_eqb_eq block_eqb block_eqb_eq). Qed.
Lemma nodupb_NoDup l : nodupb l = true -> NoDup l.
Proof. exact (nodup_by_NoDup N.eqb N.eqb_eq l). Qed.

Section Sem.
  Variable St : Type.
  Variable act : nat -> St -> St.
  Variable cond : nat -> St -> bool.
  Notation step := (step St act cond).
  Notation run := (run St act cond).
  Notation run_body := (run_body St act).
  Notation eval_cond := (eval_cond St cond).
  Notation state := (state St).
  Notation outcome := (outcome St).

  (* a step is the body, then the terminator: [exit] says where the terminator leads (a block, or out of
     the function through return/panic r), [leave] makes the outcome of it *)
  Definition exit (t : term) (es : env * St) : nat + nat * bool :=
    match t with
    | TJump a => inl a
    | TIf c a b => inl (if eval_cond c (fst es) (snd es) then a else b)
    | TRet r => inr (r, false)
    | TPanic r => inr (r, true)
    end.
  Definition leave (x : nat + nat * bool) (es : env * St) : outcome :=
    match x with inl pc => Next St (pc, fst es, snd es) | inr (r, p) => Halt St r p (snd es) end.

  Lemma step_at g pc b e s : nth_error g pc = Some b ->
    step g (pc, e, s) = leave (exit (bterm b) (run_body (body b) (e, s))) (run_body (body b) (e, s)).
  Proof. intros H. cbn [Passes.step]. rewrite H. destruct (bterm b); reflexivity. Qed.

  Lemma exit_retarget f t es :
    match exit t es with
    | inl pc => exists slot, nth_error (succs t) slot = Some pc /\ exit (retarget f t) es = inl (f slot pc)
    | inr h => exit (retarget f t) es = inr h
    end.
  Proof.
    destruct t as [a|c a b|r|r]; cbn; try reflexivity; [exists 0; auto|].
    destruct (eval_cond c (fst es) (snd es)); [exists 0 | exists 1]; auto.
  Qed.

  (* a condition that reads no variable of X cannot tell environments that agree off X apart *)
  Lemma exit_agree (X : nat -> Prop) t es es' : (forall x, X x -> cond_uses x t = false) ->
    agree X (fst es) (fst es') -> snd es = snd es' -> exit t es = exit t es'.
  Proof.
    intros HX Ha Hs. destruct t as [a|[c|y o k] a b|r|r]; cbn; try reflexivity; [rewrite Hs; reflexivity|].
    rewrite (Ha y); [reflexivity|]. intros Hy. specialize (HX y Hy). cbn in HX. rewrite Nat.eqb_refl in HX. discriminate.
  Qed.

  Lemma run_body_app l1 l2 es : run_body (l1 ++ l2) es = run_body l2 (run_body l1 es).
  Proof. apply fold_left_app. Qed.

  (* the same body keeps environments in agreement: it assigns constants only *)
  Lemma run_body_agree (X : nat -> Prop) l : forall es es', agree X (fst es) (fst es') -> snd es = snd es' ->
    agree X (fst (run_body l es)) (fst (run_body l es')) /\ snd (run_body l es) = snd (run_body l es').
  Proof.
    induction l as [|[a|y k] l IH]; intros [e s] [e' s'] Ha Hs; cbn [fst snd] in Ha, Hs; subst s'.
    - split; [exact Ha | reflexivity].
    - apply (IH (e, act a s) (e', act a s) Ha eq_refl).
    - apply (IH (upd e y k, s) (upd e' y k, s)); [|reflexivity].
      intros z Hz. unfold upd. cbn [fst]. destruct (z =? y); [reflexivity | apply Ha, Hz].
  Qed.

  Definition sets_only (X : nat -> Prop) (i : instr) : Prop := match i with ISet x _ => X x | IOrig _ => False end.
  Lemma run_body_fresh X l : Forall (sets_only X) l -> forall es,
    agree X (fst es) (fst (run_body l es)) /\ snd (run_body l es) = snd es.
  Proof.
    intros H. induction H as [|[a|y k] l Hi _ IH]; intros [e s]; [split; [apply agree_refl | reflexivity] | contradiction|].
    destruct (IH (upd e y k, s)) as [Ha Hs]. split; [exact (agree_trans X _ _ _ (agree_upd X e y k Hi) Ha) | exact Hs].
  Qed.

  Lemma wf_progress g : wf g = true -> forall pc e s, pc < length g ->
    match step g (pc, e, s) with Next _ st => fst (fst st) < length g | Halt _ _ _ _ => True | Stuck _ => False end.
  Proof.
    intros Hwf pc e s Hpc. destruct (nth_error g pc) as [b|] eqn:Eb; [|apply nth_error_None in Eb; lia].
    (* [exit_retarget], with any retargeting, says that a block exit is one of the successors *)
    rewrite (step_at g pc b e s Eb). pose proof (exit_retarget (fun _ o => o) (bterm b) (run_body (body b) (e, s))) as H.
    destruct (exit (bterm b) _) as [pc2|[r p]]; [|exact I].
    destruct H as (slot & Hslot & _). apply (wf_succ g pc b pc2 Hwf Eb), (nth_error_In _ _ Hslot).
  Qed.

  Inductive nsteps (gr : cfg) : nat -> state -> state -> Prop :=
  | ns0 st : nsteps gr 0 st st
  | nsS k st st1 st2 : step gr st = Next St st1 -> nsteps gr k st1 st2 -> nsteps gr (S k) st st2.

  Section Steps.
    Variable gr : cfg.
    Lemma nsteps_run k st st' : nsteps gr k st st' -> forall f, run gr (k + f) st = run gr f st'.
    Proof.
      intros H. induction H as [|k st st1 st2 Hs _ IH]; intros f; [reflexivity|].
      cbn [Nat.add Passes.run]. rewrite Hs. apply IH.
    Qed.
    Lemma nsteps_trans a b st1 st2 st3 : nsteps gr a st1 st2 -> nsteps gr b st2 st3 -> nsteps gr (a + b) st1 st3.
    Proof. intros H. induction H; intros H2; [exact H2 | econstructor; eauto]. Qed.
    Lemma nsteps_one st st' : step gr st = Next St st' -> nsteps gr 1 st st'.
    Proof. intros H. econstructor; [exact H | constructor]. Qed.
    (* k+1 steps: the first and k more, or k and the last *)
    Lemma nsteps_last k st st1 st2 : step gr st = Next St st1 -> nsteps gr k st1 st2 ->
      exists st', nsteps gr k st st' /\ step gr st' = Next St st2.
    Proof.
      intros Hs H. revert st Hs. induction H as [st1|k st1 stm st2 Hs1 _ IH]; intros st Hs; [exists st; split; [constructor | exact Hs]|].
      destruct (IH st1 Hs1) as (st' & Hn & Hl). exists st'. split; [econstructor; eassumption | exact Hl].
    Qed.
    Lemma run_mono f st r : run gr f st = Some r -> forall f', f <= f' -> run gr f' st = Some r.
    Proof.
      revert st. induction f as [|f IH]; intros st H f' Hf; [discriminate|].
      destruct f' as [|f']; [lia|]. cbn [Passes.run] in *. destruct (step gr st); try exact H.
      apply IH; [exact H | lia].
    Qed.
    Lemma run_det f1 f2 st r1 r2 : run gr f1 st = Some r1 -> run gr f2 st = Some r2 -> r1 = r2.
    Proof.
      intros H1 H2. pose proof (run_mono _ _ _ H1 (f1 + f2) ltac:(lia)) as A. pose proof (run_mono _ _ _ H2 (f1 + f2) ltac:(lia)) as B.
      congruence.
    Qed.
    (* st' is k steps nearer the end than st: fuel that does not suffice from st', and k more, do not suffice from st *)
    Lemma nsteps_run_out k st st' : nsteps gr k st st' -> forall f f', run gr f' st' = None -> f <= k + f' -> run gr f st = None.
    Proof.
      intros H f f' Hf' Hle. destruct (run gr f st) as [r|] eqn:E; [|reflexivity].
      apply (run_mono _ _ _ E) in Hle. rewrite (nsteps_run _ _ _ H) in Hle. congruence.
    Qed.
  End Steps.

  (* a call started in st leaves the function through instruction r (as a panic or not) in program
     state s, for res = (r, panic, s); two graphs with the same such results also fail to return together *)
  Definition returns (g : cfg) (st : state) (res : nat * bool * St) : Prop := exists fuel, run g fuel st = Some res.
  Definition same_runs (g : cfg) (st : state) (g' : cfg) (st' : state) : Prop :=
    forall res, returns g st res <-> returns g' st' res.
  Lemma same_runs_refl g st : same_runs g st g st.
  Proof. intros res. reflexivity. Qed.

  (* The simulation argument.
     g' simulates g block by block: where g takes one step from an old block, g' gets from the same
     block, through zero or more blocks of its own, to a step with the same outcome: the same next
     block with the same program state and related phi variables, or the same way out of the function
     with the same program state.  Then the two graphs have the same results (and diverge together). *)
  Definition out_rel (R : env -> env -> Prop) (o o' : outcome) : Prop :=
    match o, o' with
    | Passes.Next _ (pc, e, s), Passes.Next _ (pc', e', s') => pc = pc' /\ R e e' /\ s = s'
    | Passes.Halt _ r p s, Passes.Halt _ r' p' s' => r = r' /\ p = p' /\ s = s'
    | Passes.Stuck _, Passes.Stuck _ => True
    | _, _ => False
    end.
  Lemma out_rel_refl o : out_rel eq o o.
  Proof. destruct o as [[[pc e] s]|r p s|]; cbn; auto. Qed.
  Definition sim (R : env -> env -> Prop) (g g' : cfg) : Prop :=
    forall pc e e' s, pc < length g -> R e e' ->
    exists k st', nsteps g' k (pc, e', s) st' /\ out_rel R (step g (pc, e, s)) (step g' st').

  Section GenSim.
    Variables g g' : cfg.
    Variable R : env -> env -> Prop.
    Hypothesis Hwf : wf g = true.
    Hypothesis Hsim : sim R g g'.
    Let n := length g.

    (* on the same fuel: if g returns, so does g' (on more fuel, maybe); if g runs out, so does g',
       which has at least as many steps to take *)
    Lemma gensim_run : forall fuel pc e e' s, pc < n -> R e e' ->
      match run g fuel (pc, e, s) with
      | Some res => returns g' (pc, e', s) res
      | None => run g' fuel (pc, e', s) = None
      end.
    Proof.
      induction fuel as [|fuel IH]; intros pc e e' s Hpc HR; [reflexivity|].
      cbn [Passes.run]. pose proof (wf_progress g Hwf pc e s Hpc) as Hp.
      destruct (Hsim pc e e' s Hpc HR) as (k & st' & Hn & Ho).
      destruct (step g (pc, e, s)) as [[[pc2 e2] s2]|r p s2|]; destruct (step g' st') as [[[pc2' e2'] s2']|r' p' s2'|] eqn:Es';
        try contradiction.   (* unlike outcomes by Ho, a stuck g by Hp *)
      - destruct Ho as (<- & HR2 & <-). specialize (IH pc2 e2 e2' s2 Hp HR2).
        destruct (run g fuel (pc2, e2, s2)) as [res|].
        + destruct IH as [f' Hf']. exists (k + S f'). rewrite (nsteps_run _ _ _ _ Hn). cbn [Passes.run]. rewrite Es'. exact Hf'.
        + apply (nsteps_run_out _ _ _ _ Hn (S fuel) (S fuel)); [|lia]. cbn [Passes.run]. rewrite Es'. exact IH.
      - destruct Ho as (<- & <- & <-). exists (k + 1). rewrite (nsteps_run _ _ _ _ Hn). cbn [Passes.run]. rewrite Es'. reflexivity.
    Qed.

    (* with an entry sequence: g' started in state [st'] reaches the block g starts in *)
    Theorem gensim_equiv start st' e e' s k : start < n -> R e e' ->
      nsteps g' k st' (start, e', s) ->
      same_runs g (start, e, s) g' st'.
    Proof.
      intros Hs HR Hn res. split; intros [f H]; pose proof (gensim_run f start e e' s Hs HR) as G.
      - rewrite H in G. destruct G as [f' Hf']. exists (k + f'). rewrite (nsteps_run _ _ _ _ Hn). exact Hf'.
      - (* on the fuel g' used, g cannot run out; what it returns g' returns too, and g' is deterministic *)
        exists f. destruct (run g f (start, e, s)) as [res0|].
        + destruct G as [f' Hf']. f_equal. apply (run_det g' (k + f') f st'); [rewrite (nsteps_run _ _ _ _ Hn); exact Hf' | exact H].
        + apply (nsteps_run_out _ _ _ _ Hn f) in G; [congruence | lia].
    Qed.

    Corollary sim_equiv start e e' s : start < n -> R e e' -> same_runs g (start, e, s) g' (start, e', s).
    Proof. intros Hs HR. apply (gensim_equiv start _ e e' s 0 Hs HR). constructor. Qed.
  End GenSim.

  Section Reroute.
    Variables g g' : cfg.
    Variable X : nat -> Prop.                  (* the variables the pass introduces *)
    Hypothesis HX : forall x pc b, X x -> nth_error g pc = Some b -> cond_uses x (bterm b) = false.
    (* every old block is still in place, with assignments [ex] to new variables appended and its edges
       re-routed by [tg] (slot, old target: the new target); from the new target of an edge, entered
       right after the appended assignments, g' arrives at the old one *)
    Hypothesis Hold : forall pc b, nth_error g pc = Some b -> exists b' ex tg,
      nth_error g' pc = Some b' /\ body b' = body b ++ ex /\ bterm b' = retarget tg (bterm b) /\ Forall (sets_only X) ex /\
      forall slot old es, nth_error (succs (bterm b)) slot = Some old ->
        exists k e', nsteps g' k (tg slot old, fst (run_body ex es), snd es) (old, e', snd es) /\
                     agree X (fst (run_body ex es)) e'.

    Theorem reroute_sim : sim (agree X) g g'.
    Proof.
      intros pc e e' s Hpc Ha.
      destruct (nth_error g pc) as [b|] eqn:Eb; [|apply nth_error_None in Eb; lia].
      destruct (Hold pc b Eb) as (b' & ex & tg & Eb' & Hbody & Hterm & Hex & Hchain).
      (* es: after the old body in g; es1, es2: after it, and after the appended assignments, in g' *)
      destruct (run_body_agree X (body b) (e, s) (e', s) Ha eq_refl) as [Ha1 Hs1].
      set (es := run_body (body b) (e, s)) in *. set (es1 := run_body (body b) (e', s)) in *.
      destruct (run_body_fresh X ex Hex es1) as [Ha2 Hs2].
      pose proof (fun slot old => Hchain slot old es1) as Hc.
      set (es2 := run_body ex es1) in *.   (* also inside Hc *)
      assert (Hst : step g' (pc, e', s) = leave (exit (retarget tg (bterm b)) es2) es2).
      { rewrite (step_at g' pc b' e' s Eb'), Hbody, Hterm, run_body_app. reflexivity. }
      (* the terminators leave through the same slot *)
      rewrite (step_at g pc b e s Eb). fold es.
      rewrite (exit_agree X (bterm b) es es2 (fun x Hx => HX x pc b Hx Eb) (agree_trans X _ _ _ Ha1 Ha2) (eq_trans Hs1 (eq_sym Hs2))).
      pose proof (exit_retarget tg (bterm b) es2) as Hr.
      destruct (exit (bterm b) es2) as [pc2|[r p]].
      - (* to a block: the first step of g' lands on the new target, the chain leads on to the old one *)
        destruct Hr as (slot & Hslot & Hr). rewrite Hr in Hst. destruct (Hc slot pc2 Hslot) as (k & e3 & Hn & Ha3).
        rewrite <- Hs2 in Hn. destruct (nsteps_last g' k _ _ _ Hst Hn) as (st' & Hn' & Hl).
        exists k, st'. split; [exact Hn'|]. rewrite Hl.
        split; [reflexivity | split; [exact (agree_trans X _ _ _ Ha1 (agree_trans X _ _ _ Ha2 Ha3)) | congruence]].
      - exists 0, (pc, e', s). split; [constructor|]. rewrite Hst, Hr. repeat split. congruence.
    Qed.
  End Reroute.

  (* one edge: successor [slot] of block [src] goes through appended blocks *)
  Lemma redirect_sim g src slot b old (X : nat -> Prop) ex fb new :
    nth_error g src = Some b -> nth_error (succs (bterm b)) slot = Some old ->
    (forall x pc b, X x -> nth_error g pc = Some b -> cond_uses x (bterm b) = false) ->
    Forall (sets_only X) ex ->
    body (fb b) = body b ++ ex /\ bterm (fb b) = set_succ (bterm b) slot (length g) ->
    (forall es, exists k e', nsteps (modify g src fb ++ new) k (length g, fst (run_body ex es), snd es) (old, e', snd es) /\
                             agree X (fst (run_body ex es)) e') ->
    sim (agree X) g (modify g src fb ++ new).
  Proof.
    intros Eb Eo HX Hex Hfb Hchain. apply (reroute_sim g _ X HX). intros pc b0 Hb0.
    rewrite (modify_app_old g src fb new pc b0 Hb0). destruct (Nat.eqb_spec pc src) as [->|_].
    - (* the block whose edge is redirected *)
      assert (b0 = b) by congruence. subst b0. destruct Hfb as [H1 H2].
      exists (fb b), ex, (fun sl o => if sl =? slot then length g else o).
      split; [reflexivity|]. split; [exact H1|]. split; [rewrite H2; apply set_succ_retarget|]. split; [exact Hex|].
      intros sl o es Hsl. destruct (Nat.eqb_spec sl slot) as [->|_]; [assert (o = old) by congruence; subst o; apply Hchain|].
      exists 0. eexists. split; [constructor | apply agree_refl].
    - (* every other block is unchanged *)
      exists b0, [], (fun _ o => o). rewrite app_nil_r, retarget_id. repeat split; [constructor|].
      intros sl o es _. exists 0. eexists. split; [constructor | apply agree_refl].
  Qed.

  (* addJunkBlocks, one iteration *)
  Theorem add_jump_equiv g src slot start e s : wf g = true -> start < length g ->
    same_runs g (start, e, s) (add_jump g src slot) (start, e, s).
  Proof.
    intros Hwf Hs. unfold add_jump.
    destruct (nth_error g src) as [b|] eqn:Eb; [|apply same_runs_refl].
    destruct (nth_error (succs (bterm b)) slot) as [old|] eqn:Eo; [|apply same_runs_refl].
    apply (sim_equiv g _ (agree (fun _ => False)) Hwf); [|exact Hs | apply agree_refl].
    apply (redirect_sim g src slot b old _ [] _ _ Eb Eo); [contradiction | constructor | rewrite app_nil_r; split; reflexivity|].
    intros es. exists 1, (fst es). split; [|apply agree_refl]. apply nsteps_one.
    rewrite (step_at _ (length g) _ _ _ (modify_app_new g src _ _ _)). reflexivity.
  Qed.

  (* addTrashBlockMarkers, one iteration *)
  Theorem trash_equiv g src slot y a o kk trash start e s :
    wf g = true -> unused y g = true -> cmp6_eval o a kk = false -> start < length g ->
    same_runs g (start, e, s) (add_trash g src slot y a o kk trash) (start, e, s).
  Proof.
    intros Hwf Hy Hfalse Hs. unfold add_trash.
    destruct (nth_error g src) as [b|] eqn:Eb; [|apply same_runs_refl].
    destruct (nth_error (succs (bterm b)) slot) as [old|] eqn:Eo; [|apply same_runs_refl].
    apply (sim_equiv g _ (agree (eq y)) Hwf); [|exact Hs | apply agree_refl].
    apply (redirect_sim g src slot b old _ [ISet y a] _ _ Eb Eo); [| repeat constructor | split; reflexivity |].
    - intros x pc b0 <- Hb0. apply (unused_cond y g pc b0 Hy Hb0).
    - (* the guard block, entered with y = a, falls through to the old successor *)
      intros es. exists 1, (upd (fst es) y a). split; [|apply agree_refl]. apply nsteps_one.
      rewrite (step_at _ (length g) _ _ _ (modify_app_new g src _ _ _)).
      cbn. unfold upd at 1. rewrite Nat.eqb_refl, Hfalse. reflexivity.
  Qed.

  (* applySplitting *)
  Theorem split_equiv g j k start e s : wf g = true -> start < length g ->
    same_runs g (start, e, s) (split_block g j k) (start, e, s).
  Proof.
    intros Hwf Hs. unfold split_block. destruct (nth_error g j) as [b|] eqn:Eb; [|apply same_runs_refl].
    apply (sim_equiv g _ eq Hwf); [|exact Hs | reflexivity].
    intros pc e0 e' s0 Hpc <-.
    destruct (nth_error g pc) as [b0|] eqn:Eb0; [|apply nth_error_None in Eb0; lia].
    set (G := modify g j _ ++ _).
    destruct (Nat.eqb_spec pc j) as [->|Hne].
    - (* the first half jumps to the second, which ends like the whole *)
      exists 1, (length g, fst (run_body (firstn k (body b)) (e0, s0)), snd (run_body (firstn k (body b)) (e0, s0))). split.
      + apply nsteps_one. rewrite (step_at G j _ _ _ (modify_app_old g j _ _ j b Eb)), Nat.eqb_refl. reflexivity.
      + rewrite (step_at G (length g) _ _ _ (modify_app_new g j _ _ _)). cbn [body bterm].
        rewrite <- surjective_pairing, <- run_body_app, firstn_skipn, <- (step_at g j b e0 s0 Eb). apply out_rel_refl.
    - exists 0, (pc, e0, s0). split; [constructor|].
      rewrite (step_at G pc _ _ _ (modify_app_old g j _ _ pc b0 Eb0)), (proj2 (Nat.eqb_neq pc j) Hne), <- (step_at g pc b0 e0 s0 Eb0).
      apply out_rel_refl.
  Qed.

  (* applyFlattening *)
  Section Flat.
    Variable g : cfg.
    Variable x : nat.
    Variable keys : list N.
    Variable start : nat.

    Let n := length g.
    Let edges := all_edges g.
    Let m := length edges.
    Let fg := flatten x keys start g.
    Let E := flat_entry g.

    Lemma fg_orig j b : nth_error g j = Some b ->
      nth_error fg j = Some {| body := body b; bterm := rewrite_term n (edge_offset g j) (bterm b) |}.
    Proof.
      intros H. unfold fg, flatten. rewrite nth_error_app1 by (rewrite rewrite_blocks_length; apply nth_error_Some; congruence).
      apply (rewrite_blocks_nth _ _ 0 _ _ H).
    Qed.
    (* behind the old blocks: m fake blocks, m if-blocks, the entry *)
    Lemma fg_fake k : k < m ->
      nth_error fg (n + k) = Some {| body := [ISet x (nth k keys 0%N)]; bterm := TJump E |}.
    Proof.
      intros H. unfold fg, flatten. fold n edges m. rewrite (nth_error_app_at _ _ n k (rewrite_blocks_length _ _ _)).
      rewrite nth_error_app1 by (rewrite map_seq_length; exact H). rewrite (nth_error_map_seq _ m k H). reflexivity.
    Qed.
    (* the if-block that tests key j; past the last key, the function's entry block *)
    Let next_if j := if j <? m then n + m + j else start.
    Lemma fg_if k : k < m ->
      nth_error fg (n + m + k) =
      Some {| body := []; bterm := TIf (CVar x OEq (nth k keys 0%N)) (nth k edges 0) (next_if (S k)) |}.
    Proof.
      intros H. unfold fg, flatten. fold n edges m. rewrite <- Nat.add_assoc, (nth_error_app_at _ _ n _ (rewrite_blocks_length _ _ _)).
      rewrite (nth_error_app_at _ _ m k (map_seq_length _ _)).
      rewrite nth_error_app1 by (rewrite map_seq_length; exact H). rewrite (nth_error_map_seq _ m k H). reflexivity.
    Qed.
    Lemma fg_entry : nth_error fg E = Some {| body := []; bterm := TJump (n + m) |}.
    Proof.
      unfold E, flat_entry, fg, flatten. fold n edges m. change (n + 2 * m) with (n + (m + (m + 0))).   (* element 0 behind three lists *)
      rewrite (nth_error_app_at _ _ n _ (rewrite_blocks_length _ _ _)), !(nth_error_app_at _ _ m _ (map_seq_length _ _)). reflexivity.
    Qed.

    Lemma if_block (e : env) s j : j < m ->
      step fg (next_if j, e, s) = Next St ((if (e x =? nth j keys 0%N)%N then nth j edges 0 else next_if (S j)), e, s).
    Proof.
      intros H. unfold next_if at 1. rewrite (proj2 (Nat.ltb_lt j m) H), (step_at fg _ _ e s (fg_if j H)). reflexivity.
    Qed.

    (* the if-chain passes every block whose key differs from the value of x *)
    Lemma skip_ifs (e : env) s : forall d j, j + d <= m -> (forall i, j <= i < j + d -> nth i keys 0%N <> e x) ->
      nsteps fg d (next_if j, e, s) (next_if (j + d), e, s).
    Proof.
      induction d as [|d IH]; intros j Hj Hne; [rewrite Nat.add_0_r; constructor|].
      rewrite <- Nat.add_succ_comm. econstructor; [|apply (IH (S j)); [lia | intros i Hi; apply Hne; lia]].
      rewrite (if_block e s j) by lia.
      rewrite (proj2 (N.eqb_neq (e x) (nth j keys 0%N))); [reflexivity|]. intros Heq. apply (Hne j); [lia | congruence].
    Qed.

    (* so far the graph [fg] as it stands; from here on, what flattening asks of its parameters *)
    Hypothesis Hwf : wf g = true.
    Hypothesis Hx : unused x g = true.
    Hypothesis Hstart : start < n.
    Hypothesis Hm : 0 < m.
    Hypothesis Hklen : m <= length keys.
    Hypothesis Hknd : NoDup (firstn m keys).
    Hypothesis Hknz : Forall (fun k => k <> 0%N) (firstn m keys).

    Lemma entry_to_first (e : env) s : step fg (E, e, s) = Next St (next_if 0, e, s).
    Proof. rewrite (step_at fg _ _ e s fg_entry). unfold next_if. rewrite (proj2 (Nat.ltb_lt 0 m) Hm), Nat.add_0_r. reflexivity. Qed.

    (* a fake block: set the key, go through the dispatcher, arrive at the edge's target *)
    Lemma fake_to_target (e : env) s k : k < m ->
      nsteps fg (S (S (k + 1))) (n + k, e, s) (nth k edges 0, upd e x (nth k keys 0%N), s).
    Proof.
      clear Hwf Hx Hstart Hknz.   (* or [lia] puts every hypothesis of the section into the statement *)
      intros Hk. set (e1 := upd e x (nth k keys 0%N)). assert (He1 : e1 x = nth k keys 0%N) by (unfold e1, upd; rewrite Nat.eqb_refl; reflexivity).
      econstructor; [rewrite (step_at fg _ _ e s (fg_fake k Hk)); reflexivity|].
      econstructor; [apply entry_to_first|].
      apply (nsteps_trans fg k 1 _ (next_if k, e1, s)).
      - apply (skip_ifs e1 s k 0); [lia|]. intros i Hi. rewrite He1. intros Heq.
        apply (NoDup_firstn_nth keys m 0%N i k Hklen Hknd) in Heq; lia.
      - apply nsteps_one. rewrite (if_block e1 s k Hk), He1, N.eqb_refl. reflexivity.
    Qed.

    (* on entry x is 0: every comparison fails and control reaches the function's entry block *)
    Lemma entry_to_start (e : env) s : e x = 0%N -> nsteps fg (S m) (E, e, s) (start, e, s).
    Proof.
      clear Hwf Hx Hstart Hknd.
      intros He. econstructor; [apply entry_to_first|].
      replace start with (next_if m) by (unfold next_if; rewrite Nat.ltb_irrefl; reflexivity).
      apply (skip_ifs e s m 0); [lia|]. intros i Hi. rewrite He. apply (Forall_firstn_nth _ keys m 0%N i Hklen Hknz). lia.
    Qed.

    (* a call of the flattened function (entered at the dispatcher, x = 0) has the result of a call of
       the original entered at [start]: every edge now runs through its fake block and the dispatcher *)
    Theorem flatten_equiv (e : env) s : e x = 0%N ->
      same_runs g (start, e, s) fg (E, e, s).
    Proof.
      intros He.
      apply (gensim_equiv g fg (agree (eq x)) Hwf) with (e' := e) (k := S m);
        [|exact Hstart | apply agree_refl | apply entry_to_start, He].
      apply (reroute_sim g fg (eq x)).
      - intros y pc b <- Hb. apply (unused_cond x g pc b Hx Hb).
      - intros pc b Hb. eexists. exists [], (fun sl _ => n + (edge_offset g pc + sl)).
        split; [apply (fg_orig pc b Hb)|]. rewrite app_nil_r, rewrite_term_retarget. repeat split; [constructor|].
        intros sl old [e0 s0] Hsl. destruct (edge_at g pc b sl old Hb Hsl) as [Hk <-].
        exists (S (S (edge_offset g pc + sl + 1))), (upd e0 x (nth (edge_offset g pc + sl) keys 0%N)).
        split; [apply fake_to_target, Hk | apply agree_upd; reflexivity].
    Qed.
  End Flat.

  (* the shuffle at the end of applyFlattening *)
  Section Shuffle.
    Variable g : cfg.
    Variable sigma : list nat.
    Hypothesis Hwf : wf g = true.
    Hypothesis Hperm : perm_okb sigma g = true.

    Lemma renumber_nth i b : nth_error g i = Some b ->
      nth_error (renumber sigma g) (nth i sigma 0) = Some {| body := body b; bterm := rename_term sigma (bterm b) |}.
    Proof.
      intros Hb. unfold perm_okb in Hperm. apply andb_true_iff in Hperm as [H Hnd]. apply andb_true_iff in H as [Hlen Hlt].
      apply Nat.eqb_eq in Hlen. apply nodup_nat_NoDup in Hnd.
      assert (Hi : i < length sigma) by (rewrite Hlen; apply nth_error_Some; congruence).
      assert (Hj : nth i sigma 0 < length g).
      { apply Nat.ltb_lt. apply (proj1 (forallb_forall _ _) Hlt). apply nth_In, Hi. }
      unfold renumber. rewrite (nth_error_map_seq _ (length g) _ Hj). rewrite (index_of_nth sigma Hnd i Hi), Hb. reflexivity.
    Qed.

    Theorem renumber_run : forall fuel pc e s, pc < length g ->
      run (renumber sigma g) fuel (nth pc sigma 0, e, s) = run g fuel (pc, e, s).
    Proof.
      induction fuel as [|fuel IH]; intros pc e s Hpc; [reflexivity|].
      destruct (nth_error g pc) as [b|] eqn:Eb; [|apply nth_error_None in Eb; lia].
      cbn [Passes.run]. rewrite (step_at _ _ _ e s (renumber_nth pc b Eb)), (step_at g pc b e s Eb).
      destruct (bterm b) as [t|c t f|r|r] eqn:Et; cbn; try reflexivity.
      - apply IH. apply (wf_succ g pc b t Hwf Eb). rewrite Et. left. reflexivity.
      - destruct (eval_cond c _ _); apply IH; apply (wf_succ g pc b _ Hwf Eb); rewrite Et; cbn; auto.
    Qed.
  End Shuffle.

  (* same results from a fresh call (all phi variables zero) *)
  Definition equiv (gs gs' : cfg * nat) : Prop :=
    forall s, same_runs (fst gs) (snd gs, env0, s) (fst gs') (snd gs', env0, s).

  Theorem pass_equiv p gs : pass_okb p gs = true -> equiv gs (apply_pass p gs).
  Proof.
    destruct gs as [g start]. unfold pass_okb. intros H. apply andb_true_iff in H as [H Hp]. apply andb_true_iff in H as [Hwf Hs].
    apply Nat.ltb_lt in Hs. intros s res. cbn [fst snd].
    destruct p as [src slot|src slot y a o k trash|j k|x keys|sigma]; cbn [apply_pass fst snd].
    - apply (add_jump_equiv g src slot start env0 s Hwf Hs).
    - apply andb_true_iff in Hp as [Hy Hf]. apply negb_true_iff in Hf.
      apply (trash_equiv g src slot y a o k trash start env0 s Hwf Hy Hf Hs).
    - apply (split_equiv g j k start env0 s Hwf Hs).
    - rewrite !andb_true_iff in Hp. destruct Hp as [[[[Hx H2] H3] H4] H5].
      apply (flatten_equiv g x keys start Hwf Hx Hs); [| | | | reflexivity].
      + apply Nat.ltb_lt, H2.
      + apply Nat.leb_le, H3.
      + apply nodupb_NoDup, H4.
      + apply Forall_forall. intros k Hk. apply N.eqb_neq, negb_true_iff, (proj1 (forallb_forall _ _) H5 k Hk).
    - split; intros [f H]; exists f; [rewrite (renumber_run g sigma Hwf Hp f start env0 s Hs) | rewrite <- (renumber_run g sigma Hwf Hp f start env0 s Hs)]; exact H.
  Qed.

  Theorem passes_equiv : forall ps gs, passes_okb ps gs = true -> equiv gs (apply_passes ps gs).
  Proof.
    induction ps as [|p ps IH]; intros gs H; [intros s res; reflexivity|].
    apply andb_true_iff in H as [H1 H2].
    intros s res. rewrite (pass_equiv p gs H1 s res). apply (IH _ H2).
  Qed.

  (* what the correspondence check evaluates on graphs dumped from the implementation *)
  Theorem passes_checked_instance ps g start real :
    passes_okb ps (g, start) = true -> cfg_eqb (fst (apply_passes ps (g, start))) real = true ->
    equiv (g, start) (real, snd (apply_passes ps (g, start))).
  Proof.
    intros Hok He. apply cfg_eqb_eq in He. subst real. apply passes_equiv, Hok.
  Qed.
End Sem.

(* Hardening of the dispatcher keys (internal/ctrlflow/hardening.go).
   Both hardenings replace the constant k_i stored by fake block i and the constant compared by
   if-block i by expressions; what matters is the value stored and the value compared with. *)
Open Scope N_scope.

(* xor: store  localKey ^ k_i  (localKey = globalKey at run time), compare with  k_i ^ globalKey *)
Definition xor_store (g k : N) : N := N.lxor g k.
Definition xor_compare (g k : N) : N := N.lxor k g.
Lemma xor_store_is_compare g k : xor_store g k = xor_compare g k.
Proof. apply N.lxor_comm. Qed.

(* generateKeys(count, [globalKey]) yields distinct keys different from 0 and from the global key:
   the effective keys are then again distinct and non-zero, which is what flattening needs *)
Theorem xor_hardening_keys_ok g keys :
  NoDup keys -> Forall (fun k => k <> g) keys ->
  NoDup (map (xor_store g) keys) /\ Forall (fun e => e <> 0) (map (xor_store g) keys).
Proof.
  intros Hnd Hne. split.
  - induction Hnd as [|k r Hk _ IH]; [constructor|]. inversion Hne. constructor; [|apply IH; assumption].
    intros Hin. apply in_map_iff in Hin as (k' & He & Hk'). apply lxor_cancel_l in He. subst. contradiction.
  - apply Forall_map. eapply Forall_impl; [|exact Hne]. intros k Hk H0. apply Hk. symmetry. apply N.lxor_eq, H0.
Qed.

(* delegate_table: store  table[d](k ^ dk)  where  table[d](i) = i ^ dk ; compare with k *)
Definition delegate_store (dk k : N) : N := N.lxor (N.lxor k dk) dk.
Theorem delegate_store_is_key dk k : delegate_store dk k = k.
Proof. apply lxor_cancel. Qed.
