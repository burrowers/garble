(* Lemmas about Model/LinkFlags.v (C02, C01, C05).  [cut_eq] below is LinkFlags.cut_eq, which shadows
   Flags.cut_eq and is [Base.Facts.cut_at EQ] by conversion. *)
From Verif Require Import Base.Bytes Base.Facts Model.Flags Model.LinkFlags Proofs.FlagsProofs.
Open Scope N_scope.

Definition nomention (name : str) (l : list str) : bool := forallb (fun a => negb (mentions name a)) l.

Lemma nomention_app name a b : nomention name (a ++ b) = nomention name a && nomention name b.
Proof. unfold nomention. apply forallb_app. Qed.

(* the two tests flagValues and flagSetValue make on an argument both fail on every argument of [l] *)
Lemma nomention_Forall name l :
  nomention name l = true ->
  Forall (fun a => strip_prefix (name ++ [EQ]) a = None /\ beq a name = false) l.
Proof.
  unfold nomention. rewrite forallb_forall, Forall_forall. intros H a Ha.
  apply H, negb_true_iff, orb_false_iff in Ha as [Hb Hs].
  destruct (strip_prefix (name ++ [EQ]) a); [discriminate | auto].
Qed.

Lemma flag_set_value_prefix name value pre l :
  nomention name pre = true -> flag_set_value (pre ++ l) name value = pre ++ flag_set_value l name value.
Proof.
  intros H. apply nomention_Forall in H. induction H as [|a pre [Hs Hb] _ IH]; [reflexivity|].
  cbn [app flag_set_value]. rewrite Hs, Hb, IH. reflexivity.
Qed.

Lemma flag_values_prefix name pre l : nomention name pre = true -> flag_values (pre ++ l) name = flag_values l name.
Proof.
  intros H. apply nomention_Forall in H. induction H as [|a pre [Hs Hb] _ IH]; [reflexivity|].
  cbn [app flag_values]. rewrite Hs, Hb. exact IH.
Qed.

Lemma flag_values_none name l : nomention name l = true -> flag_values l name = [].
Proof. intros H. rewrite <- (app_nil_r l). apply (flag_values_prefix name l [] H). Qed.

Lemma beq_longer a c t : beq (a ++ c :: t) a = false.
Proof.
  apply not_true_is_false. intros H. apply beq_eq in H. apply (f_equal (@length N)) in H.
  rewrite app_length in H. cbn in H. lia.
Qed.

Lemma flag_set_value_once pre old post name value :
  nomention name pre = true ->
  flag_set_value (pre ++ (name ++ EQ :: old) :: post) name value = pre ++ (name ++ EQ :: value) :: post.
Proof.
  intros Hpre. rewrite (flag_set_value_prefix name value pre _ Hpre). cbn [flag_set_value].
  rewrite strip_prefix_self. reflexivity.
Qed.

Lemma flag_set_value_bare pre old post name value :
  nomention name pre = true ->
  flag_set_value (pre ++ name :: old :: post) name value = pre ++ name :: value :: post.
Proof.
  intros Hpre. rewrite (flag_set_value_prefix name value pre _ Hpre). cbn [flag_set_value].
  rewrite strip_prefix_longer, beq_refl. reflexivity.
Qed.

Lemma flag_value_once pre v post name :
  nomention name pre = true -> nomention name post = true ->
  flag_value (pre ++ (name ++ EQ :: v) :: post) name = v.
Proof.
  intros Hpre Hpost. unfold flag_value. rewrite (flag_values_prefix name pre _ Hpre). cbn [flag_values].
  rewrite strip_prefix_self, beq_longer, (flag_values_none name post Hpost). reflexivity.
Qed.

(* the value itself is an argument too, and is looked at again *)
Lemma flag_value_bare pre v post name :
  nomention name pre = true -> nomention name (v :: post) = true ->
  flag_value (pre ++ name :: v :: post) name = v.
Proof.
  intros Hpre Hpost. unfold flag_value. rewrite (flag_values_prefix name pre _ Hpre).
  pose proof (flag_values_none name (v :: post) Hpost) as Hnone. cbn [flag_values] in Hnone |- *.
  rewrite strip_prefix_longer, beq_refl, Hnone. reflexivity.
Qed.

(* where the flag occurs once, as -name=old, flagValue reads after flagSetValue what was set *)
Theorem flag_value_after_set pre old post name value :
  forallb (fun a => negb (mentions name a)) pre = true ->
  forallb (fun a => negb (mentions name a)) post = true ->
  flag_value (flag_set_value (pre ++ (name ++ EQ :: old) :: post) name value) name = value.
Proof.
  intros Hpre Hpost. rewrite (flag_set_value_once pre old post name value Hpre).
  apply flag_value_once; assumption.
Qed.

(* transformLink on a linker command line of the shape cmd/go produces:
   pre ++ [-importcfg; old] ++ mid ++ [-buildid=X] ++ post *)
Theorem transform_link_flags_shape pre cfgold mid X post xdups newcfg :
  nomention s_importcfg pre = true ->
  nomention s_buildid (pre ++ [s_importcfg; cfgold] ++ mid) = true ->
  transform_link_flags (pre ++ [s_importcfg; cfgold] ++ mid ++ [s_buildid ++ EQ :: X] ++ post) xdups newcfg
  = pre ++ [s_importcfg; newcfg] ++ mid ++ [s_buildid ++ [EQ]] ++ post ++ xdups ++ [s_X_buildversion; s_w; s_s].
Proof.
  intros Hi Hb. unfold transform_link_flags.
  rewrite !nomention_app in Hb. apply andb_true_iff in Hb as [Hb1 Hb2]. apply andb_true_iff in Hb2 as [Hb2 Hb3].
  (* the first mention of -buildid is -buildid=X, behind pre, -importcfg old and mid *)
  rewrite <- !app_assoc.
  rewrite (flag_set_value_prefix s_buildid [] pre _ Hb1), (flag_set_value_prefix s_buildid [] _ _ Hb2),
    (flag_set_value_prefix s_buildid [] mid _ Hb3).
  cbn [app flag_set_value]. rewrite strip_prefix_self.
  (* the first mention of -importcfg is behind pre *)
  rewrite <- app_assoc, (flag_set_value_prefix s_importcfg newcfg pre _ Hi).
  cbn [app flag_set_value]. rewrite strip_prefix_longer, beq_refl.
  rewrite <- app_assoc. cbn [app]. rewrite <- !app_assoc. reflexivity.
Qed.

(* -trimpath: garble's temporary directory is put first, in front of whatever cmd/go passed *)
Theorem alter_trimpath_shape pre old post tempdir :
  nomention s_trimpath pre = true -> nomention s_trimpath post = true ->
  alter_trimpath (pre ++ (s_trimpath ++ EQ :: old) :: post) tempdir
  = pre ++ (s_trimpath ++ EQ :: tempdir ++ s_arrow_semi ++ old) :: post.
Proof.
  intros Hpre Hpost. unfold alter_trimpath. rewrite (flag_value_once pre old post s_trimpath Hpre Hpost).
  apply flag_set_value_once, Hpre.
Qed.

(* the form cmd/go actually uses for the compiler: "-trimpath" "value" *)
Theorem alter_trimpath_shape_bare pre old post tempdir :
  nomention s_trimpath pre = true -> nomention s_trimpath (old :: post) = true ->
  alter_trimpath (pre ++ s_trimpath :: old :: post) tempdir
  = pre ++ s_trimpath :: (tempdir ++ s_arrow_semi ++ old) :: post.
Proof.
  intros Hpre Hpost. unfold alter_trimpath.
  replace (flag_value _ s_trimpath) with old by (symmetry; apply flag_value_bare; assumption).
  apply flag_set_value_bare, Hpre.
Qed.

Lemma cut_last_dot_app path name :
  existsb (N.eqb 46) name = false -> cut_last_dot (path ++ 46 :: name) = Some (path, name).
Proof.
  intros Hn. assert (Hnone : cut_last_dot name = None).
  { induction name as [|c r IH]; [reflexivity|]. apply orb_false_iff in Hn as [H1 H2].
    cbn [cut_last_dot]. rewrite (IH H2), N.eqb_sym, H1. reflexivity. }
  induction path as [|c r IH]; cbn [app cut_last_dot]; [rewrite Hnone | rewrite IH]; reflexivity.
Qed.

Lemma x_flag_parse path name v :
  existsb (N.eqb EQ) (path ++ 46 :: name) = false -> existsb (N.eqb 46) name = false ->
  cut_eq (path ++ 46 :: name ++ EQ :: v) = Some (path ++ 46 :: name, v) /\
  cut_last_dot (path ++ 46 :: name) = Some (path, name).
Proof.
  intros He Hd. split; [|exact (cut_last_dot_app path name Hd)].
  change (path ++ 46 :: name ++ EQ :: v) with (path ++ (46 :: name) ++ EQ :: v).
  rewrite app_assoc. exact (cut_at_app EQ _ v He).
Qed.

(* -X=path.name=value for a package of the build: the duplicate names the variable by the package's
   obfuscated import path and by the hash the Go side gives a package-level variable; the path is cut
   at the LAST dot, so import paths with dots work *)
Theorem x_dup_of_known_package lookup cur hname path name v ipath key :
  existsb (N.eqb EQ) (path ++ 46 :: name) = false -> existsb (N.eqb 46) name = false ->
  beq path s_mainpkg = false -> lookup path = Some (ipath, key) ->
  x_dup lookup cur hname (path ++ 46 :: name ++ EQ :: v) = [s_Xeq ++ ipath ++ [46] ++ hname key name ++ [EQ] ++ v].
Proof.
  intros He Hd Hm Hl. unfold x_dup. destruct (x_flag_parse path name v He Hd) as [-> ->].
  rewrite Hm, Hl. reflexivity.
Qed.

(* a package that is not part of the build gets no duplicate (cmd/link ignores such flags too) *)
Theorem x_dup_of_unknown_package lookup cur hname path name v :
  existsb (N.eqb EQ) (path ++ 46 :: name) = false -> existsb (N.eqb 46) name = false ->
  beq path s_mainpkg = false -> lookup path = None ->
  x_dup lookup cur hname (path ++ 46 :: name ++ EQ :: v) = [].
Proof.
  intros He Hd Hm Hl. unfold x_dup. destruct (x_flag_parse path name v He Hd) as [-> ->].
  rewrite Hm, Hl. reflexivity.
Qed.

(* -X=path.name=value names a variable of the package being compiled iff the text before the LAST
   dot is its import path (or "main" for a main package) and the text after it is one of its variables *)
Theorem linker_var_of_own_package pkg_path pkg_name vars name v :
  existsb (N.eqb EQ) (pkg_path ++ 46 :: name) = false -> existsb (N.eqb 46) name = false -> mem name vars = true ->
  linker_var pkg_path pkg_name vars (pkg_path ++ 46 :: name ++ EQ :: v) = Some (name, v).
Proof.
  intros He Hd Hm. unfold linker_var. destruct (x_flag_parse pkg_path name v He Hd) as [-> ->].
  rewrite beq_refl, Hm. reflexivity.
Qed.

Theorem linker_var_of_other_package pkg_path pkg_name vars path name v :
  existsb (N.eqb EQ) (path ++ 46 :: name) = false -> existsb (N.eqb 46) name = false ->
  beq path pkg_path = false -> beq path s_mainpkg = false ->
  linker_var pkg_path pkg_name vars (path ++ 46 :: name ++ EQ :: v) = None.
Proof.
  intros He Hd Hp Hm. unfold linker_var. destruct (x_flag_parse path name v He Hd) as [-> ->].
  rewrite Hp, Hm. reflexivity.
Qed.
