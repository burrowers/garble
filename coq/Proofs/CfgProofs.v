(* The dispatcher lookup, the lowering of phis and the trash guard, each on its own (C11). *)
From Verif Require Import Base.Bytes Base.Facts Model.Cfg.
Open Scope N_scope.

(* with pairwise distinct keys the dispatcher sends key k_T to T and nowhere else *)
Theorem dispatch_finds table k t : NoDup (map fst table) -> In (k, t) table -> dispatch table k = Some t.
Proof.
  induction table as [|[k' t'] r IH]; intros Hnd Hin; [contradiction|]. cbn [dispatch].
  inversion Hnd as [|? ? Hnotin Hnd']; subst. destruct Hin as [H|H].
  - injection H as -> ->. rewrite N.eqb_refl. reflexivity.
  - destruct (N.eqb_spec k k') as [->|Hne]; [|apply IH; assumption].
    exfalso. apply Hnotin. apply in_map_iff. exists (k', t). split; [reflexivity | exact H].
Qed.

Theorem dispatch_only_table table k t : dispatch table k = Some t -> In (k, t) table.
Proof.
  induction table as [|[k' t'] r IH]; cbn; [discriminate|]. destruct (N.eqb_spec k k') as [->|Hne].
  - intros H. injection H as ->. left. reflexivity.
  - intros H. right. apply IH, H.
Qed.

Lemma set_other e v x w : w <> v -> set e v x w = e w.
Proof. intros H. unfold set. destruct (N.eqb_spec w v); [contradiction | reflexivity]. Qed.

Lemma phi_seq_par_gen phis : forall assigned (e0 acc : env),
  independent assigned phis = true ->
  (forall w, ~ In w assigned -> acc w = e0 w) ->
  fold_left (fun a p => set a (fst p) (eval a (snd p))) phis acc =
  fold_left (fun a p => set a (fst p) (eval e0 (snd p))) phis acc.
Proof.
  induction phis as [|[v s] r IH]; intros assigned e0 acc Hind Hacc; [reflexivity|].
  cbn [fold_left fst snd]. cbn [independent] in Hind. apply andb_true_iff in Hind as [Hs Hr].
  assert (He : eval acc s = eval e0 s).
  { destruct s as [w|c]; [|reflexivity]. cbn. apply Hacc.
    apply negb_true_iff in Hs. rewrite <- (existsb_eqb_iff N.eqb N.eqb_eq), Hs. discriminate. }
  rewrite He. apply (IH (v :: assigned)); [exact Hr|].
  intros w Hw. rewrite set_other; [apply Hacc; intros H; apply Hw; right; exact H | intros ->; apply Hw; left; reflexivity].
Qed.

(* lowering phis to sequential assignments is correct when no phi reads an earlier phi's target *)
Theorem phi_sequential_equals_parallel phis e : independent [] phis = true -> phi_sequential phis e = phi_parallel phis e.
Proof. intros H. unfold phi_sequential, phi_parallel. apply (phi_seq_par_gen phis [] e e H). auto. Qed.

(* a, b = b, a : the sequential lowering loses a value (known finding F6) *)
Theorem phi_swap_refuted : exists phis e, phi_sequential phis e 2 <> phi_parallel phis e 2.
Proof.
  exists [(1, SVar 2); (2, SVar 1)], (fun v => v * 10). cbn. discriminate.
Qed.

(* every operator the generator may pick for a trash guard evaluates to false *)
Theorem trash_guard_never_true a b o : In o (false_ops a b) -> cmp_eval o a b = false.
Proof. unfold false_ops. intros H. apply filter_In in H as [_ H]. apply negb_true_iff, H. Qed.
