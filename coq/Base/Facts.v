(* Facts about lists and binary naturals that are not about garble: those several proof files share,
   and list lemmas that one of them needed and that hold of any list. *)
From Coq Require Export List NArith Bool Lia.
From Coq Require Import ZArith ZifyN ZifyNat ZifyBool.
Import ListNotations.

(* [lia] for goals with [/] and [mod] by constants, on N or nat *)
Ltac mod_lia := zify; Z.div_mod_to_equations; lia.

Lemma if_same {A} (b : bool) (x y : A) : y = x -> (if b then x else y) = x.
Proof. intros ->. destruct b; reflexivity. Qed.

Lemma existsb_false {A} (f : A -> bool) l : existsb f l = false <-> forall x, In x l -> f x = false.
Proof.
  rewrite <- not_true_iff_false, existsb_exists. split.
  - intros H x Hx. apply not_true_iff_false. intros Hf. apply H. exists x. split; assumption.
  - intros H (x & Hx & Hf). rewrite (H x Hx) in Hf. discriminate.
Qed.

(* a boolean equality with its specification: membership, absence of duplicates.  [eqb] is bound
   outside the [fix], so a model's own duplicate test over a fixed equality is convertible with
   [nodup_by] of that equality *)
Section Eqb.
  Context {A : Type} (eqb : A -> A -> bool).
  Hypothesis eqb_eq : forall a b, eqb a b = true <-> a = b.

  Lemma existsb_eqb_iff x l : existsb (eqb x) l = true <-> In x l.
  Proof.
    rewrite existsb_exists. split.
    - intros (y & Hy & E). apply eqb_eq in E. subst. exact Hy.
    - intros H. exists x. split; [exact H | apply eqb_eq; reflexivity].
  Qed.

  Fixpoint nodup_by (l : list A) : bool :=
    match l with [] => true | x :: r => negb (existsb (eqb x) r) && nodup_by r end.

  Lemma nodup_by_NoDup l : nodup_by l = true -> NoDup l.
  Proof.
    induction l as [|x r IH]; intros H; [constructor|]. apply andb_true_iff in H as [H1 H2].
    constructor; [|apply IH, H2]. rewrite <- existsb_eqb_iff. apply not_true_iff_false, negb_true_iff, H1.
  Qed.
End Eqb.

Lemma lxor_cancel a k : N.lxor (N.lxor a k) k = a.
Proof. rewrite N.lxor_assoc, N.lxor_nilpotent, N.lxor_0_r. reflexivity. Qed.

Lemma lxor_cancel_l a b c : N.lxor a b = N.lxor a c -> b = c.
Proof. intros H. rewrite <- (lxor_cancel b a), <- (lxor_cancel c a), !(N.lxor_comm _ a), H. reflexivity. Qed.

(* induction for recursions that consume more than one element per call *)
Lemma list_length_ind {A} (P : list A -> Prop) :
  (forall l, (forall l', length l' < length l -> P l') -> P l) -> forall l, P l.
Proof.
  intros H l. enough (G : forall n l', length l' < n -> P l') by (apply (G (S (length l))); lia).
  induction n as [|n IH]; intros l' Hl; [lia|]. apply H. intros l'' Hl''. apply IH. lia.
Qed.

Lemma fold_left_rel {A S T : Type} (R : S -> T -> Prop) (f : S -> A -> S) (g : T -> A -> T) l :
  (forall s t x, In x l -> R s t -> R (f s x) (g t x)) ->
  forall s t, R s t -> R (fold_left f l s) (fold_left g l t).
Proof.
  induction l as [|x l IH]; intros H s t Hst; [exact Hst|]. apply IH.
  - intros s' t' y Hy. apply H. right. exact Hy.
  - apply H; [left; reflexivity | exact Hst].
Qed.

Lemma fold_left_inv {A S : Type} (F : S -> A -> S) (Inv : S -> Prop) l :
  (forall s a, In a l -> Inv s -> Inv (F s a)) -> forall s, Inv s -> Inv (fold_left F l s).
Proof. intros H s Hs. apply (fold_left_rel (fun s _ => Inv s) F F l (fun s' _ a => H s' a) s s Hs). Qed.

Lemma fold_left_map {A B S : Type} (F : S -> B -> S) (h : A -> B) l :
  forall s, fold_left F (map h l) s = fold_left (fun s a => F s (h a)) l s.
Proof. induction l as [|a l IH]; intros s; [reflexivity | apply IH]. Qed.

(* steps that are each undone by their inverse under an invariant are undone, as a sequence, by the
   inverses in reverse order *)
Lemma fold_undo {A S : Type} (F G : S -> A -> S) (Inv : S -> Prop) (ok : A -> Prop) :
  (forall s a, Inv s -> ok a -> Inv (F s a) /\ G (F s a) a = s) ->
  forall l, Forall ok l -> forall s, Inv s -> fold_left G l (fold_left F (rev l) s) = s.
Proof.
  intros H l. induction l as [|a l IH]; intros Hl s Hs; [reflexivity|].
  inversion Hl as [|? ? Ha Hl'].
  cbn [rev]. rewrite fold_left_app. cbn [fold_left].
  assert (HY : Inv (fold_left F (rev l) s)).
  { apply (fold_left_inv F Inv); [|exact Hs]. intros s' a' Hin Hs'. apply H; [exact Hs'|].
    exact (proj1 (Forall_forall _ _) Hl' a' (proj2 (in_rev l a') Hin)). }
  destruct (H _ a HY Ha) as [_ Hg]. rewrite Hg. apply IH; assumption.
Qed.

Lemma Forall_firstn {A} (P : A -> Prop) n l : Forall P l -> Forall P (firstn n l).
Proof.
  intros H. apply Forall_forall. intros x Hx. rewrite <- (firstn_skipn n l) in H.
  apply Forall_app in H as [H _]. exact (proj1 (Forall_forall _ _) H x Hx).
Qed.

Lemma firstn_S_nth {A} (l : list A) d : forall i, i < length l -> firstn (S i) l = firstn i l ++ [nth i l d].
Proof.
  induction l as [|x l IH]; intros [|i] Hi; cbn in *; try lia; [reflexivity|]. f_equal. apply IH. lia.
Qed.

Lemma nth_firstn_lt {A} (l : list A) : forall m k d, k < m -> nth k (firstn m l) d = nth k l d.
Proof.
  induction l as [|x l IH]; intros m k d H; [destruct m, k; reflexivity|].
  destruct m as [|m]; [lia|]. destruct k as [|k]; [reflexivity|]. apply IH. lia.
Qed.

Lemma NoDup_firstn_nth {A} (l : list A) m d j k :
  m <= length l -> NoDup (firstn m l) -> j < m -> k < m -> nth j l d = nth k l d -> j = k.
Proof.
  intros Hm Hnd Hj Hk Heq. rewrite <- (nth_firstn_lt l m j d Hj), <- (nth_firstn_lt l m k d Hk) in Heq.
  apply (proj1 (NoDup_nth (firstn m l) d) Hnd); [rewrite firstn_length; lia.. | exact Heq].
Qed.

Lemma Forall_firstn_nth {A} (P : A -> Prop) (l : list A) m d j :
  m <= length l -> Forall P (firstn m l) -> j < m -> P (nth j l d).
Proof.
  intros Hm HP Hj. rewrite <- (nth_firstn_lt l m j d Hj).
  apply (proj1 (Forall_forall _ _) HP), nth_In. rewrite firstn_length. lia.
Qed.

Lemma map_seq_length {A} (f : nat -> A) m : length (map f (seq 0 m)) = m.
Proof. rewrite map_length. apply seq_length. Qed.

Lemma nth_error_map_seq {A} (f : nat -> A) m k : k < m -> nth_error (map f (seq 0 m)) k = Some (f k).
Proof.
  intros H. apply map_nth_error. rewrite (nth_error_nth' _ 0) by (rewrite seq_length; exact H).
  rewrite seq_nth by exact H. reflexivity.
Qed.

Lemma nth_map_seq {A} (f : nat -> A) n i d : i < n -> nth i (map f (seq 0 n)) d = f i.
Proof. intros H. apply nth_error_nth, nth_error_map_seq, H. Qed.

Lemma filter_map_length {A B} (f : A -> B) (p : B -> bool) l :
  length (filter (fun x => p (f x)) l) = length (filter p (map f l)).
Proof. induction l as [|a l IH]; cbn; [|destruct (p (f a)); cbn; rewrite IH]; reflexivity. Qed.

Lemma app_len_inj {A} (a1 a2 r1 r2 : list A) :
  length a1 = length a2 -> a1 ++ r1 = a2 ++ r2 -> a1 = a2 /\ r1 = r2.
Proof.
  revert a2; induction a1 as [|x a1 IH]; intros [|y a2] Hl H; try discriminate; auto.
  injection H as -> H. injection Hl as Hl. destruct (IH a2 Hl H) as [-> ->]. auto.
Qed.

Lemma nth_error_app_at {A} (l l' : list A) n k : length l = n -> nth_error (l ++ l') (n + k) = nth_error l' k.
Proof. intros <-. rewrite nth_error_app2 by lia. f_equal. lia. Qed.

Section CutAt.
  Variable sep : N.

  (* [sep] is bound outside the [fix], so a model's own copy of this function for a fixed separator
     is convertible with [cut_at] of that separator *)
  Fixpoint cut_at (s : list N) : option (list N * list N) :=
    match s with
    | [] => None
    | c :: r => if (c =? sep)%N then Some ([], r)
                else match cut_at r with Some (a, b) => Some (c :: a, b) | None => None end
    end.

  Lemma cut_at_app a b : existsb (N.eqb sep) a = false -> cut_at (a ++ sep :: b) = Some (a, b).
  Proof.
    induction a as [|c a IH]; cbn [existsb app cut_at]; intros H; [rewrite N.eqb_refl; reflexivity|].
    apply orb_false_iff in H as [H1 H2]. rewrite N.eqb_sym, H1, (IH H2). reflexivity.
  Qed.

  Lemma cut_at_none s : existsb (N.eqb sep) s = false -> cut_at s = None.
  Proof.
    induction s as [|c s IH]; cbn [existsb cut_at]; intros H; [reflexivity|].
    apply orb_false_iff in H as [H1 H2]. rewrite N.eqb_sym, H1, (IH H2). reflexivity.
  Qed.
End CutAt.
